(* Lemmas for Model/Wal.v (C06, C07).

   Recovery has a normal form: the state and counter it returns are the newest valid
   snapshot's, advanced by the changes of the verified records of all log files in
   order ([replay_sc]).  C07 reads its claims off that form for an arbitrary disk; C06
   shows that the writer keeps the disk in a shape ([DInvG]) on which the form is the
   committed state, at every point a crash can cut an operation ([steps]). *)
From Coq Require Import Sorting.Sorted.
From SV Require Import Lib.Base Lib.ListAux Lib.Bytes Lib.Isort Gen.WalConsts Model.Wal.
Local Open Scope N_scope.

(* generic *)
Lemma flat_map_nil : forall {A B} (g : A -> list B) l x, flat_map g l = [] -> In x l -> g x = [].
Proof.
  induction l as [|y tl IH]; intros x H Hi; [contradiction|]. apply app_eq_nil in H as [H1 H2].
  destruct Hi as [<- | Hi]; [exact H1 | exact (IH x H2 Hi)].
Qed.
Lemma fold_max_ge : forall {A} (f : A -> N) l c, c <= fold_left (fun m x => N.max m (f x)) l c.
Proof. induction l as [|x tl IH]; intro c; cbn; [lia | etransitivity; [|apply IH]; lia]. Qed.
Lemma fold_max_in : forall {A} (f : A -> N) l c x, In x l -> f x <= fold_left (fun m x => N.max m (f x)) l c.
Proof.
  induction l as [|y tl IH]; intros c x Hi; [contradiction|]. cbn. destruct Hi as [-> | Hi]; [|apply IH, Hi].
  etransitivity; [|apply fold_max_ge]. lia.
Qed.
Lemma fold_max_le : forall {A} (f : A -> N) l c C, c <= C -> Forall (fun x => f x <= C) l ->
  fold_left (fun m x => N.max m (f x)) l c <= C.
Proof. induction l as [|x tl IH]; intros c C Hc Hf; [exact Hc|]. inv Hf. apply IH; [apply N.max_lub|]; assumption. Qed.
Lemma sorted_snoc : forall {A} (f : A -> N) l x, StronglySorted (fun a b => f a < f b) l ->
  Forall (fun e => f e < f x) l -> StronglySorted (fun a b => f a < f b) (l ++ [x]).
Proof.
  intros A f l x Hs Hb. induction Hs as [|y tl Hs IH Hf]; cbn; [repeat constructor|].
  inv Hb. constructor; [apply IH; assumption|].
  apply Forall_app. split; [assumption|]. constructor; [assumption|constructor].
Qed.
Lemma sorted_app_r : forall {A} (P : A -> A -> Prop) a b, StronglySorted P (a ++ b) -> StronglySorted P b.
Proof. intros A P a b H. induction a as [|x a IH]; [exact H|]. inv H. apply IH. assumption. Qed.

Lemma bytes_eqb_eq : forall a b, bytes_eqb a b = true <-> a = b.
Proof. apply (list_eqb_eq N.eqb); [exact N.eqb_eq | intros [|x a] [|y b]; reflexivity]. Qed.
Lemma bytes_eqb_refl : forall a, bytes_eqb a a = true.
Proof. intro a. apply bytes_eqb_eq. reflexivity. Qed.
Lemma bytes_eqb_neq : forall a b, bytes_eqb a b = false <-> a <> b.
Proof. intros a b. rewrite <- bytes_eqb_eq. symmetry. apply not_true_iff_false. Qed.
Lemma bytes_eqbP : forall a b, reflect (a = b) (bytes_eqb a b).
Proof. intros a b. apply iff_reflect. symmetry. apply bytes_eqb_eq. Qed.

Lemma len_app : forall {A} (a b : list A), len (a ++ b) = len a + len b.
Proof. intros. unfold len. rewrite app_length. lia. Qed.
Lemma len_nil : forall {A}, len (@nil A) = 0.
Proof. reflexivity. Qed.

Lemma le_bytes_length : forall n x, length (le_bytes n x) = n.
Proof. induction n; intro x; cbn; [reflexivity | rewrite IHn; reflexivity]. Qed.

Lemma le_val_le_bytes : forall n x, x < 256 ^ N.of_nat n -> le_val (le_bytes n x) = x.
Proof.
  induction n as [|n IH]; intros x Hx.
  - cbn in *. lia.
  - cbn [le_bytes le_val]. rewrite IH.
    + pose proof (N.div_mod x 256). lia.
    + rewrite Nat2N.inj_succ, N.pow_succ_r' in Hx.
      apply N.div_lt_upper_bound; lia.
Qed.

(* the fields of the MAC input can be read back off it (C07) *)
Definition u64 (x : N) : Prop := x < 18446744073709551616.

Lemma le_bytes_app_inj : forall x y a b, u64 x -> u64 y -> le_bytes 8 x ++ a = le_bytes 8 y ++ b -> x = y /\ a = b.
Proof.
  intros x y a b Hx Hy H. apply app_inj_len in H as [H ->]; [|rewrite !le_bytes_length; reflexivity].
  split; [|reflexivity]. rewrite <- (le_val_le_bytes 8 x Hx), <- (le_val_le_bytes 8 y Hy), H. reflexivity.
Qed.
Lemma ttype_code_inj : forall a b, ttype_code a = ttype_code b -> a = b.
Proof. destruct a, b; cbn; intro H; try reflexivity; discriminate. Qed.

Definition small (body : bytes) : Prop := len body < 4294967296.
Definition frames (bodies : list bytes) : bytes := concat (map frame bodies).

Lemma frame_head : forall body rest, small body ->
  le_val (firstn 4 (frame body ++ rest)) = len body /\ skipn 4 (frame body ++ rest) = body ++ rest.
Proof.
  intros body rest Hs. unfold frame. rewrite <- app_assoc.
  split; [|exact (skipn_len_app (le_bytes 4 _) _)].
  replace (firstn 4 _) with (le_bytes 4 (len body)) by (symmetry; exact (firstn_len_app (le_bytes 4 _) _)).
  apply le_val_le_bytes, Hs.
Qed.
Lemma frame_len : forall body, len (frame body) = 4 + len body.
Proof. intro. unfold frame. rewrite len_app. unfold len at 1. rewrite le_bytes_length. lia. Qed.
Lemma frames_app : forall a b, frames (a ++ b) = frames a ++ frames b.
Proof. intros. unfold frames. rewrite map_app, concat_app. reflexivity. Qed.

(* a tail on which the framing loop stops and reports an incomplete write *)
Definition torn (t : bytes) : Prop :=
  t <> [] /\ (len t < 4 \/ len t - 4 < le_val (firstn 4 t)).

Lemma parse_frames_fuel : forall fuel1 fuel2 b, (length b < fuel1)%nat -> (length b < fuel2)%nat ->
  parse_frames fuel1 (len b) b = parse_frames fuel2 (len b) b.
Proof.
  induction fuel1 as [|f1 IH]; intros [|f2] b H1 H2; try lia. cbn [parse_frames].
  destruct (len b =? 0); [reflexivity|]. destruct (len b <? 4) eqn:E4; [reflexivity|].
  set (n := le_val (firstn 4 b)). destruct (len b - 4 <? n) eqn:En; [reflexivity|].
  replace (len b - 4 - n) with (len (skipn (N.to_nat n) (skipn 4 b))) by (unfold len in *; rewrite !skipn_length; lia).
  unfold len in E4, En. rewrite (IH f2); [reflexivity | |]; rewrite !skipn_length; lia.
Qed.

Lemma parse_cons : forall body rest, small body ->
  parse (frame body ++ rest) = (body :: fst (parse rest), snd (parse rest)).
Proof.
  intros body rest Hs. destruct (frame_head body rest Hs) as [Hv Hk]. unfold parse at 1.
  rewrite app_length. cbn [parse_frames Nat.add]. rewrite len_app, frame_len, Hv, Hk.
  do 3 (case_if; [lia|]).
  replace (4 + len body + len rest - 4 - len body) with (len rest) by lia.
  unfold len at 2 3. rewrite Nat2N.id, skipn_len_app, firstn_len_app.
  rewrite (parse_frames_fuel _ (S (length rest))) by (unfold frame; rewrite ?app_length, ?le_bytes_length; lia).
  fold (parse rest). destruct (parse rest). reflexivity.
Qed.

Lemma parse_app : forall bodies rest, Forall small bodies ->
  parse (frames bodies ++ rest) = (bodies ++ fst (parse rest), snd (parse rest)).
Proof.
  intros bodies rest H. induction H as [|body tl Hs _ IH]; [change (frames [] ++ rest) with rest; destruct (parse rest); reflexivity|].
  change (frames (body :: tl)) with (frame body ++ frames tl). rewrite <- app_assoc, parse_cons, IH by exact Hs. reflexivity.
Qed.

Lemma parse_torn : forall t, torn t -> parse t = ([], true).
Proof.
  intros t [Hne Ht]. unfold parse. cbn [parse_frames].
  assert (len t <> 0) by (destruct t; [congruence | unfold len; cbn; lia]).
  case_if; [lia|]. case_if; [reflexivity|]. case_if; [reflexivity | lia].
Qed.

Lemma parse_exact : forall bodies, Forall small bodies -> parse (frames bodies) = (bodies, false).
Proof. intros. rewrite <- (app_nil_r (frames bodies)), parse_app by assumption. cbn. rewrite app_nil_r. reflexivity. Qed.
Lemma parse_torn_tail : forall bodies t, Forall small bodies -> torn t ->
  parse (frames bodies ++ t) = (bodies, true).
Proof. intros. rewrite parse_app, parse_torn by assumption. cbn. rewrite app_nil_r. reflexivity. Qed.
Lemma good_len_torn : forall bodies t, Forall small bodies -> torn t -> good_len (frames bodies ++ t) = len (frames bodies).
Proof.
  intros bodies t Hs Ht. unfold good_len. rewrite parse_torn_tail by assumption. cbn [fst].
  rewrite <- (N.add_0_l (len _)). generalize 0. clear. induction bodies as [|b tl IH]; intro a0; [cbn; lia|].
  cbn [fold_left]. rewrite IH. change (frames (b :: tl)) with (frame b ++ frames tl). rewrite len_app, frame_len. lia.
Qed.

Lemma strict_prefix_torn : forall body n, small body ->
  (0 < n < length (frame body))%nat -> torn (firstn n (frame body)).
Proof.
  intros body n Hs Hn. split.
  - destruct (frame body); [cbn in Hn; lia|]. destruct n; [lia | discriminate].
  - assert (Hl : len (firstn n (frame body)) = N.of_nat n) by (unfold len; rewrite firstn_length; lia).
    destruct (Nat.lt_ge_cases n 4) as [H4 | H4]; [left; lia|]. right.
    rewrite firstn_firstn. replace (Nat.min 4 n) with 4%nat by lia.
    pose proof (frame_head body [] Hs) as [Hv _]. rewrite app_nil_r in Hv. rewrite Hv, Hl.
    pose proof (frame_len body). unfold len in *. lia.
Qed.

Lemma parse_allocs_spec : forall fuel b,
  map fst (parse_allocs fuel (len b) b) = map len (fst (parse_frames fuel (len b) b)) /\
  forall n r, In (n, r) (parse_allocs fuel (len b) b) -> n <= r /\ r <= len b.
Proof.
  induction fuel as [|fuel IH]; intro b; [now split|]. cbn [parse_allocs parse_frames].
  destruct (len b =? 0); [now split|]. destruct (len b <? 4) eqn:E4; [now split|].
  set (m := le_val (firstn 4 b)). destruct (len b - 4 <? m) eqn:En; [now split|].
  assert (Hl : len (skipn (N.to_nat m) (skipn 4 b)) = len b - 4 - m) by (unfold len in *; rewrite !skipn_length; lia).
  rewrite <- Hl. destruct (IH (skipn (N.to_nat m) (skipn 4 b))) as [IH1 IH2].
  destruct (parse_frames fuel _ _) as [fs t]. cbn [fst map]. split.
  - rewrite IH1. f_equal. unfold len in *. rewrite firstn_length, skipn_length. lia.
  - intros n r [Heq | Hin]; [|apply IH2 in Hin; lia].
    assert (n = m /\ r = len b - 4) as [-> ->] by (split; congruence). lia.
Qed.

Definition steq (a b : state) : Prop := forall k, get a k = get b k.
Infix "≈" := steq (at level 70).

Lemma steq_refl : forall a, a ≈ a. Proof. intros a k; reflexivity. Qed.
Lemma steq_sym : forall a b, a ≈ b -> b ≈ a. Proof. intros a b H k; symmetry; apply H. Qed.
Lemma steq_trans : forall a b c, a ≈ b -> b ≈ c -> a ≈ c.
Proof. intros a b c H1 H2 k; rewrite H1; apply H2. Qed.

Lemma get_del : forall st k k', get (del k st) k' = if bytes_eqb k k' then None else get st k'.
Proof.
  unfold del. induction st as [|[k0 v0] tl IH]; intros k k'; cbn [filter fst get].
  - destruct (bytes_eqb k k'); reflexivity.
  - destruct (bytes_eqbP k0 k) as [-> | Hne]; cbn [negb get]; rewrite IH; [destruct (bytes_eqb k k'); reflexivity|].
    destruct (bytes_eqbP k0 k') as [-> |]; [|reflexivity]. destruct (bytes_eqbP k k'); [congruence | reflexivity].
Qed.
Lemma get_set : forall st k v k', get (set k v st) k' = if bytes_eqb k k' then Some v else get st k'.
Proof. intros. cbn. rewrite get_del. destruct (bytes_eqb k k'); reflexivity. Qed.

Lemma get_apply_change : forall st c k,
  get (apply_change st c) k = if bytes_eqb (fst c) k then snd c else get st k.
Proof. intros st [k0 [v|]] k; unfold apply_change; cbn [fst snd]; [apply get_set | apply get_del]. Qed.

Fixpoint last_change (k : key) (cs : list change) : option (option val) :=
  match cs with
  | [] => None
  | c :: tl => match last_change k tl with
               | Some r => Some r
               | None => if bytes_eqb (fst c) k then Some (snd c) else None
               end
  end.

Lemma get_apply_changes : forall cs st k,
  get (apply_changes st cs) k = match last_change k cs with Some r => r | None => get st k end.
Proof.
  induction cs as [|c tl IH]; intros st k; [reflexivity|].
  cbn [apply_changes fold_left last_change]. change (fold_left apply_change tl ?s) with (apply_changes s tl).
  rewrite IH. destruct (last_change k tl); [reflexivity|].
  rewrite get_apply_change. destruct (bytes_eqb (fst c) k); reflexivity.
Qed.
Lemma last_change_spec : forall k cs,
  match last_change k cs with Some r => In (k, r) cs | None => forall r, ~ In (k, r) cs end.
Proof.
  induction cs as [|[k0 r0] tl IH]; cbn; [tauto|]. destruct (last_change k tl); [tauto|].
  destruct (bytes_eqbP k0 k) as [-> | Hne]; [tauto|]. intros r [[= -> _] | H]; [contradiction | exact (IH r H)].
Qed.
Lemma last_change_app : forall k a b,
  last_change k (a ++ b) = match last_change k b with Some r => Some r | None => last_change k a end.
Proof. induction a as [|c tl IH]; intro b; cbn; [destruct (last_change k b) | rewrite IH; destruct (last_change k b)]; reflexivity. Qed.

Lemma apply_changes_app : forall a b st, apply_changes st (a ++ b) = apply_changes (apply_changes st a) b.
Proof. intros. apply fold_left_app. Qed.
Lemma apply_changes_steq : forall cs a b, a ≈ b -> apply_changes a cs ≈ apply_changes b cs.
Proof. intros cs a b H k. rewrite !get_apply_changes, H. reflexivity. Qed.

(* replaying changes a state already holds, and then more, is the longer history: the last
   change to a key is the same in both *)
Lemma replay_overlap : forall X a b c S, S ≈ apply_changes X (a ++ b) ->
  apply_changes S (b ++ c) ≈ apply_changes X (a ++ b ++ c).
Proof.
  intros X a b c S HS k. rewrite !get_apply_changes, HS, get_apply_changes, !last_change_app.
  destruct (last_change k c), (last_change k b); reflexivity.
Qed.

Lemma get_apply_changes_src : forall cs st k v,
  get (apply_changes st cs) k = Some v -> In (k, Some v) cs \/ get st k = Some v.
Proof.
  intros cs st k v H. rewrite get_apply_changes in H. pose proof (last_change_spec k cs) as Hl.
  destruct (last_change k cs); subst; auto.
Qed.

Lemma opt_val_eqb_eq : forall a b, opt_val_eqb a b = true <-> a = b.
Proof. intros [x|] [y|]; cbn; rewrite ?bytes_eqb_eq; split; congruence. Qed.
Lemma get_in_keys : forall st k v, get st k = Some v -> In k (map fst st).
Proof.
  induction st as [|[k0 v0] tl IH]; intros k v H; [discriminate|]. cbn in *.
  destruct (bytes_eqbP k0 k); [left; assumption | right; eapply IH; exact H].
Qed.
Lemma existsb_bytes_in : forall k l, existsb (bytes_eqb k) l = true <-> In k l.
Proof.
  intros k l. rewrite existsb_exists. split.
  - intros [x [Hx He]]. apply bytes_eqb_eq in He. subst. exact Hx.
  - intro H. exists k. split; [exact H | apply bytes_eqb_refl].
Qed.
Lemma dedup_keys_in : forall l seen k, In k (dedup_keys seen l) <-> In k l /\ ~ In k seen.
Proof.
  induction l as [|x tl IH]; intros seen k; cbn; [tauto|].
  destruct (existsb (bytes_eqb x) seen) eqn:E.
  - apply existsb_bytes_in in E. rewrite IH. intuition (subst; tauto).
  - assert (~ In x seen) by (rewrite <- existsb_bytes_in; congruence).
    cbn. rewrite IH. cbn. destruct (list_eq_dec N.eq_dec x k); intuition (subst; tauto).
Qed.
Lemma dedup_keys_nodup : forall l seen, NoDup (dedup_keys seen l).
Proof.
  induction l as [|x tl IH]; intro seen; cbn; [constructor|].
  destruct (existsb (bytes_eqb x) seen); [apply IH|]. constructor; [|apply IH].
  rewrite dedup_keys_in. cbn. tauto.
Qed.
Lemma ins_change_in : forall c l x, In x (ins_change c l) <-> c = x \/ In x l.
Proof.
  induction l as [|y tl IH]; intro x; cbn [ins_change In]; [reflexivity|].
  destruct (bytes_leb (fst c) (fst y)); cbn [In]; [reflexivity|]. rewrite IH. split; intros [H | [H | H]]; auto.
Qed.
Lemma sort_changes_in : forall l x, In x (sort_changes l) <-> In x l.
Proof.
  induction l as [|c tl IH]; intro x; [reflexivity|].
  change (sort_changes (c :: tl)) with (ins_change c (sort_changes tl)). rewrite ins_change_in, IH. reflexivity.
Qed.

Lemma batch_diff_in : forall before after k r,
  In (k, r) (batch_diff before after) <-> get before k <> get after k /\ r = get after k.
Proof.
  intros before after k r. unfold batch_diff. rewrite sort_changes_in, in_flat_map.
  rewrite <- (opt_val_eqb_eq (get before k)). split.
  - intros (x & _ & Hi). destruct (opt_val_eqb (get before x) (get after x)) eqn:E; [contradiction|].
    destruct Hi as [[= -> <-] | []]. split; [congruence | reflexivity].
  - intros (Hne & ->). exists k. split.
    + apply dedup_keys_in. split; [|tauto]. apply in_or_app.
      destruct (get after k) as [v|] eqn:Ea; [left; eapply get_in_keys; exact Ea|].
      destruct (get before k) as [v|] eqn:Eb; [right; eapply get_in_keys; exact Eb | contradiction].
    + destruct (opt_val_eqb (get before k) (get after k)); [contradiction | left; reflexivity].
Qed.

Lemma batch_diff_apply : forall before after M, before ≈ M -> apply_changes M (batch_diff before after) ≈ after.
Proof.
  intros before after M HM k. rewrite get_apply_changes, <- HM.
  pose proof (last_change_spec k (batch_diff before after)) as Hl.
  destruct (last_change k (batch_diff before after)) as [r|]; [apply batch_diff_in in Hl; apply Hl|].
  destruct (opt_val_eqb (get before k) (get after k)) eqn:E; [apply opt_val_eqb_eq; exact E|].
  destruct (Hl (get after k)). apply batch_diff_in. rewrite <- opt_val_eqb_eq. split; congruence.
Qed.

(* the model's sort on the name is the insertion sort of Lib/Isort *)
Lemma ins_by_insert : forall {A} le (x : N * A) l, ins_by le x l = insert (fun a b => le (fst a) (fst b)) x l.
Proof. induction l as [|y tl IH]; cbn; [reflexivity | rewrite IH; reflexivity]. Qed.
Lemma isort_by_isort : forall {A} le (l : list (N * A)), isort_by le l = isort (fun a b => le (fst a) (fst b)) l.
Proof. induction l as [|x tl IH]; cbn; [reflexivity | rewrite IH; apply ins_by_insert]. Qed.
Lemma isort_by_in : forall {A} le (y : N * A) l, In y (isort_by le l) <-> In y l.
Proof. intros A le y l. rewrite isort_by_isort. apply isort_in. Qed.
Lemma isort_by_of_sorted {A} le (R : N -> N -> Prop) (l : list (N * A)) : (forall a b, R a b -> le a b = true) ->
  StronglySorted (fun a b => R (fst a) (fst b)) l -> isort_by le l = l.
Proof.
  intros HR H. induction H as [|x tl Hs IH Hf]; [reflexivity|].
  cbn [isort_by]. rewrite IH. destruct tl as [|y tl']; [reflexivity|].
  cbn [ins_by]. inv Hf. rewrite (HR _ _ H1). reflexivity.
Qed.
Lemma sort_desc_of_sorted {A} (l : list (N * A)) : StronglySorted (fun a b => fst b < fst a) l -> sort_desc l = l.
Proof. apply (isort_by_of_sorted _ (fun a b => b < a)). intros a b H. apply N.leb_le. lia. Qed.
Lemma sort_asc_of_sorted {A} (l : list (N * A)) : StronglySorted (fun a b => fst a < fst b) l -> sort_asc l = l.
Proof. apply (isort_by_of_sorted _ N.lt). intros a b H. apply N.leb_le. lia. Qed.

Lemma next_seq_gt : forall d p, In p (d_rot d) -> fst p < next_seq d.
Proof. intros d p Hi. unfold next_seq. pose proof (fold_max_in fst (d_rot d) 0 p Hi). lia. Qed.

Lemma aupdate_none : forall {A} n (x : A) l, (forall p, In p l -> fst p <> n) -> aupdate n x l = None.
Proof.
  induction l as [|[m y] tl IH]; intro H; [reflexivity|]. cbn.
  replace (m =? n) with false by (symmetry; apply N.eqb_neq; apply (H (m, y)); left; reflexivity).
  rewrite IH; [reflexivity|]. intros p Hp. apply H. right. exact Hp.
Qed.

Lemma alookup_aupdate : forall {A} n (x : A) l l', aupdate n x l = Some l' -> alookup n l' = Some x.
Proof.
  induction l as [|[m y] tl IH]; intros l' H; [discriminate|]. cbn in H.
  destruct (m =? n) eqn:E.
  - inv H. cbn. rewrite E. reflexivity.
  - destruct (aupdate n x tl) as [tl'|]; [|discriminate]. inv H. cbn. rewrite E. apply IH. reflexivity.
Qed.
Lemma alookup_aput_front : forall {A} n (x : A) l, alookup n (aput_front n x l) = Some x.
Proof.
  intros. unfold aput_front. destruct (aupdate n x l) as [l'|] eqn:E.
  - eapply alookup_aupdate. exact E.
  - cbn. rewrite N.eqb_refl. reflexivity.
Qed.

Lemma aremove_keeps_head : forall {A} x t0 (b0 : A) tl, t0 <> x -> aremove x ((t0, b0) :: tl) = (t0, b0) :: aremove x tl.
Proof. intros A x t0 b0 tl H. unfold aremove. cbn [filter fst]. apply N.eqb_neq in H. rewrite H. reflexivity. Qed.

Definition snap_hi (d : disk) : N := match d_snap d with [] => 0 | (t, _) :: _ => t end.

(* installing a snapshot whose name is not below the newest one present (second-granular
   clock, non-decreasing) makes it the newest *)
Lemma aput_front_newest d ts x : StronglySorted (fun a b => fst b < fst a) (d_snap d) -> snap_hi d <= ts ->
  exists tl, aput_front ts x (d_snap d) = (ts, x) :: tl /\ StronglySorted (fun a b => fst b < fst a) ((ts, x) :: tl).
Proof.
  unfold snap_hi. intros Hs Hts. destruct (d_snap d) as [|[t0 b0] tl]; [exists []; cbn; repeat constructor|].
  pose proof (StronglySorted_inv Hs) as [Hs' Hf].
  destruct (N.eq_dec t0 ts) as [-> | Hne]; unfold aput_front.
  - exists tl. cbn. rewrite N.eqb_refl. split; [reflexivity | constructor; assumption].
  - exists ((t0, b0) :: tl). rewrite Forall_forall in Hf. rewrite aupdate_none.
    + split; [reflexivity|]. constructor; [exact Hs|]. constructor; [apply N.le_neq; auto|].
      apply Forall_forall. intros p Hp. specialize (Hf p Hp). cbn in *. lia.
    + intros p [<- | Hp]; cbn; [exact Hne|]. specialize (Hf p Hp). cbn in Hf. lia.
Qed.

Lemma open_snap_hi : forall d, snap_hi (open_disk d) = snap_hi d.
Proof.
  intro d. unfold open_disk, open_actions, snap_hi. destruct (d_wal d) as [b|] eqn:E.
  - destruct (snd (parse b)); cbn [exec fold_left exec1 read]; rewrite ?E; reflexivity.
  - cbn [exec fold_left exec1 read]. rewrite E. reflexivity.
Qed.

Section RecoveryFacts.
  Variable deser : bytes -> option entry.
  Variable mac : bytes -> bytes.
  Variable val_ok : bytes -> bool.
  Variable dec_changes : bytes -> option (list change).
  Variable deser_hdr : bytes -> option snaphdr.
  Variable dec_map : bytes -> option state.

  Notation verify := (verify mac).
  Notation entry_changes := (entry_changes val_ok dec_changes).
  Notation replay_frame := (replay_frame deser mac val_ok dec_changes).
  Notation replay_file := (replay_file deser mac val_ok dec_changes).
  Notation snap_valid := (snap_valid mac deser_hdr dec_map).
  Notation load_snaps := (load_snaps mac deser_hdr dec_map).
  Notation recover := (recover deser mac val_ok dec_changes deser_hdr dec_map).

  (* a record body that recovery applies: decodes, tag verifies, payload decodes *)
  Definition accepted (body : bytes) (e : entry) (cs : list change) : Prop :=
    deser body = Some e /\ verify e = true /\ entry_changes e = Some cs.
  (* a record body that recovery rejects and reports *)
  Definition rejected (body : bytes) : Prop :=
    deser body = None \/ exists e, deser body = Some e /\ verify e = false.

  Lemma rejected_dec : forall body, rejected body \/ exists e, deser body = Some e /\ verify e = true.
  Proof.
    intro body. destruct (deser body) as [e|] eqn:E; [|left; left; exact E].
    destruct (verify e) eqn:V; [right; exists e; auto | left; right; exists e; auto].
  Qed.

  (* state and counter: what each record body contributes, whatever the statistics *)
  Definition sc (r : rstate) : state * N := fst r.
  Definition body_changes (body : bytes) : list change :=
    match deser body with
    | Some e => if verify e then match entry_changes e with Some cs => cs | None => [] end else []
    | None => []
    end.
  Definition body_txid (body : bytes) : N :=
    match deser body with Some e => if verify e then e_txid e else 0 | None => 0 end.
  Definition replay_sc (bodies : list bytes) (p : state * N) : state * N :=
    (apply_changes (fst p) (flat_map body_changes bodies), fold_left (fun m b => N.max m (body_txid b)) bodies (snd p)).
  Definition bodies_of (files : list bytes) : list bytes := flat_map (fun b => fst (parse b)) files.

  Lemma replay_sc_app : forall a b p, replay_sc (a ++ b) p = replay_sc b (replay_sc a p).
  Proof. intros. unfold replay_sc. rewrite flat_map_app, fold_left_app, apply_changes_app. reflexivity. Qed.

  Lemma replay_frame_sc : forall r body, sc (replay_frame r body) = replay_sc [body] (sc r).
  Proof.
    intros [[st c] s] body. unfold Wal.replay_frame, replay_sc, body_changes, body_txid. cbn [flat_map fold_left sc fst snd].
    destruct (deser body) as [e|]; [destruct (verify e); [destruct (entry_changes e)|]|];
      cbn; rewrite ?app_nil_r, ?N.max_0_r; reflexivity.
  Qed.
  Lemma fold_replay_sc : forall bodies r, sc (fold_left replay_frame bodies r) = replay_sc bodies (sc r).
  Proof.
    induction bodies as [|b tl IH]; intro r; [destruct r as [[] ?]; reflexivity|].
    cbn [fold_left]. rewrite IH, replay_frame_sc, <- replay_sc_app. reflexivity.
  Qed.
  Lemma replay_file_sc : forall r b, sc (replay_file r b) = replay_sc (fst (parse b)) (sc r).
  Proof.
    intros r b. rewrite <- fold_replay_sc. unfold Wal.replay_file. destruct (parse b) as [fs t].
    cbn [fst]. destruct (fold_left replay_frame fs r) as [[st c] s]. reflexivity.
  Qed.
  Lemma fold_files_sc : forall files r, sc (fold_left replay_file files r) = replay_sc (bodies_of files) (sc r).
  Proof.
    induction files as [|b tl IH]; intro r; [destruct r as [[] ?]; reflexivity|].
    cbn [fold_left bodies_of flat_map]. rewrite IH, replay_file_sc, <- replay_sc_app. reflexivity.
  Qed.

  Lemma replay_sc_rejected : forall body p, rejected body -> replay_sc [body] p = p.
  Proof.
    intros body [st c] [Hd | [e [Hd Hv]]]; unfold replay_sc, body_changes, body_txid; cbn [flat_map fold_left fst snd];
      rewrite Hd, ?Hv, N.max_0_r; reflexivity.
  Qed.

  (* where a recovered value can come from: a verified record of some log file, or
     a snapshot file whose keyed checksum verifies *)
  Definition from_record (files : list bytes) (k : key) (v : val) : Prop :=
    exists b body e cs, In b files /\ In body (fst (parse b)) /\ accepted body e cs /\ In (k, Some v) cs.
  Definition from_snapshot (snaps : list (N * bytes)) (k : key) (v : val) : Prop :=
    exists ts b h st, In (ts, b) snaps /\ snap_valid b = Some (h, st) /\ get st k = Some v.

  Lemma load_snaps_src : forall l s k v,
    get (fst (sc (load_snaps l s))) k = Some v -> from_snapshot l k v.
  Proof.
    induction l as [|[ts b] tl IH]; intros s k v H; [discriminate|].
    cbn [Wal.load_snaps] in H. destruct (snap_valid b) as [[h st]|] eqn:E.
    - exists ts, b, h, st. cbn; auto.
    - apply IH in H. destruct H as [ts' [b' [h [st [Hi Hr]]]]]. exists ts', b', h, st. cbn; auto.
  Qed.

  (* statistics: the corruption events each record body and each log file contributes *)
  Definition events (r : rstate) : list evkind := s_events (snd r).
  Definition body_events (body : bytes) : list evkind :=
    match deser body with Some e => if verify e then [] else [EvSkipped] | None => [EvSkipped] end.
  Definition file_events (b : bytes) : list evkind :=
    flat_map body_events (fst (parse b)) ++ (if snd (parse b) then [EvTorn] else []).

  Lemma fold_events : forall {X} (f : rstate -> X -> rstate) (g : X -> list evkind),
    (forall r x, events (f r x) = events r ++ g x) -> forall l r, events (fold_left f l r) = events r ++ flat_map g l.
  Proof.
    intros X f g H. induction l as [|x tl IH]; intro r; cbn [fold_left flat_map]; [symmetry; apply app_nil_r|].
    rewrite IH, H, app_assoc. reflexivity.
  Qed.
  Lemma replay_frame_events : forall r body, events (replay_frame r body) = events r ++ body_events body.
  Proof.
    intros [[st c] s] body. unfold events, body_events, Wal.replay_frame.
    destruct (deser body) as [e|]; [destruct (verify e); [destruct (entry_changes e)|]|]; cbn; rewrite ?app_nil_r; reflexivity.
  Qed.
  Lemma replay_file_events : forall r b, events (replay_file r b) = events r ++ file_events b.
  Proof.
    intros r b. pose proof (fold_events replay_frame body_events replay_frame_events (fst (parse b)) r) as H.
    unfold file_events, Wal.replay_file. destruct (parse b) as [fs t]. cbn [fst snd] in *.
    destruct (fold_left replay_frame fs r) as [[st c] s]. unfold events in *. cbn [snd] in H.
    destruct t; cbn; rewrite H, ?app_nil_r, ?app_assoc; reflexivity.
  Qed.
  Lemma rejected_body_events : forall body, rejected body -> body_events body <> [].
  Proof. intros body [H | (e & H & Hv)]; unfold body_events; rewrite H, ?Hv; discriminate. Qed.

  Lemma load_snaps_ge : forall l s, (length (s_events s) <= length (events (load_snaps l s)))%nat.
  Proof.
    unfold events. induction l as [|[t b] tl IH]; intro s; [apply Nat.le_refl|]. cbn [Wal.load_snaps].
    destruct (snap_valid b) as [[h st]|]; [apply Nat.le_refl|].
    etransitivity; [|apply IH]. cbn. rewrite app_length. apply Nat.le_add_r.
  Qed.
End RecoveryFacts.

(* [steps P Q d acts]: [P] holds of the disk before each action, of the disk left by any
   non-empty strict part of an append, and of the last disk, of which [Q] holds too. *)
Fixpoint steps (P Q : disk -> Prop) (d : disk) (acts : list action) : Prop :=
  match acts with
  | [] => P d /\ Q d
  | x :: tl =>
      P d /\
      match x with
      | AAppend f y => forall n, (0 < n < length y)%nat -> P (exec1 d (AAppend f (firstn n y)))
      | _ => True
      end /\
      steps P Q (exec1 d x) tl
  end.

Lemma cut_nil : forall a b, cut [] a b = [].
Proof. destruct a; reflexivity. Qed.

Lemma steps_end : forall P Q acts d, steps P Q d acts -> Q (exec d acts).
Proof. induction acts as [|x tl IH]; intros d H; [apply H | apply IH, H]. Qed.

Lemma steps_cut : forall (P Q : disk -> Prop) acts d, steps P Q d acts -> forall a b, P (exec d (cut acts a b)).
Proof.
  induction acts as [|x tl IH]; intros d H a b.
  - rewrite cut_nil. apply H.
  - destruct H as (Hd & Hp & Ht). destruct a as [|a]; [|exact (IH _ Ht a b)].
    unfold cut. cbn [firstn nth_error app]. destruct x as [f y| | | | |]; try exact Hd.
    destruct b as [|b]; [exact Hd|].
    destruct (Nat.lt_ge_cases (S b) (length y)) as [Hlt | Hge]; [apply Hp; lia|].
    rewrite firstn_all2 by exact Hge. destruct tl; apply Ht.
Qed.

Lemma steps_weaken : forall (P Q Q' : disk -> Prop) acts d, (forall d', Q d' -> Q' d') -> steps P Q d acts -> steps P Q' d acts.
Proof. induction acts as [|x tl IH]; intros d HQ H; cbn in *; intuition. Qed.

Lemma steps_app : forall P Q a b d, steps P (fun d' => steps P Q d' b) d a -> steps P Q d (a ++ b).
Proof. induction a as [|x tl IH]; intros b d H; [apply H|]. destruct H as (H1 & H2 & H3). cbn. auto. Qed.

(* a loop of unlinks that keeps an invariant of the names still to go *)
Lemma steps_unlinks : forall {A} (J : list A -> disk -> Prop) (name : A -> fname) (P Q : disk -> Prop),
  (forall x l d, J (x :: l) d -> J l (exec1 d (AUnlink (name x)))) ->
  (forall l d, J l d -> P d) -> (forall d, J [] d -> Q d) ->
  forall l d, J l d -> steps P Q d (map (fun x => AUnlink (name x)) l).
Proof.
  intros A J name P Q Hstep HP HQ. induction l as [|x l IH]; intros d H; cbn; eauto 6.
Qed.

Section WriterFacts.
  Variable deser : bytes -> option entry.
  Variable mac : bytes -> bytes.
  Variable val_ok : bytes -> bool.
  Variable dec_changes : bytes -> option (list change).
  Variable deser_hdr : bytes -> option snaphdr.
  Variable dec_map : bytes -> option state.
  Variable ser : entry -> bytes.
  Variable enc_changes : list change -> bytes.
  Variable ser_hdr : snaphdr -> bytes.
  Variable enc_map : state -> bytes.

  (* the codec assumptions: decoding inverts encoding, encodings fit a u32 length *)
  Hypothesis Hser : forall e, deser (ser e) = Some e.
  Hypothesis Hser_small : forall e, small (ser e).
  Hypothesis Hchg : forall cs, dec_changes (enc_changes cs) = Some cs.
  Hypothesis Hhdr : forall h, deser_hdr (ser_hdr h) = Some h.
  Hypothesis Hhdr_small : forall h, small (ser_hdr h).
  Hypothesis Hmap : forall st, exists st', dec_map (enc_map st) = Some st' /\ st' ≈ st.

  Notation verify := (verify mac).
  Notation entry_changes := (entry_changes val_ok dec_changes).
  Notation replay_sc := (replay_sc deser mac val_ok dec_changes).
  Notation snap_valid := (snap_valid mac deser_hdr dec_map).
  Notation load_snaps := (load_snaps mac deser_hdr dec_map).
  Notation recover := (recover deser mac val_ok dec_changes deser_hdr dec_map).

  Definition genuine (e : entry) : Prop := verify e = true /\ exists cs, entry_changes e = Some cs.
  Definition eff (e : entry) : list change := match entry_changes e with Some cs => cs | None => [] end.
  Definition effs (es : list entry) : list change := flat_map eff es.
  Definition fbytes (es : list entry) : bytes := frames (map ser es).
  Definition max_txid (c : N) (es : list entry) : N := fold_left (fun m e => N.max m (e_txid e)) es c.

  Lemma small_sers : forall es, Forall small (map ser es).
  Proof. intro es. apply Forall_map, Forall_forall. intros e _. apply Hser_small. Qed.
  Lemma effs_app : forall a b, effs (a ++ b) = effs a ++ effs b.
  Proof. intros. apply flat_map_app. Qed.
  Lemma max_txid_in : forall es c e, In e es -> e_txid e <= max_txid c es.
  Proof using Hser Hser_small. intros es c e. apply (fold_max_in e_txid). Qed.

  Lemma replay_sc_genuine : forall es p, Forall genuine es ->
    replay_sc (map ser es) p = (apply_changes (fst p) (effs es), max_txid (snd p) es).
  Proof.
    intros es p H. revert p. induction H as [|e tl [Hv _] _ IH]; intros [st c]; [reflexivity|].
    change (map ser (e :: tl)) with ([ser e] ++ map ser tl). rewrite replay_sc_app, IH.
    unfold Proofs.Wal.replay_sc, body_changes, body_txid. cbn [flat_map fold_left fst snd]. rewrite Hser, Hv, app_nil_r.
    fold (eff e). rewrite <- apply_changes_app. reflexivity.
  Qed.

  (* shape of the log part of a disk the writer can leave behind *)
  Definition rot_bytes (R : list (N * list entry)) : list (N * bytes) := map (fun p => (fst p, fbytes (snd p))) R.
  Definition all_entries (R : list (N * list entry)) (ew : list entry) : list entry := concat (map snd R) ++ ew.
  Definition LogShape (d : disk) (R : list (N * list entry)) (ew : list entry) (t : bytes) : Prop :=
    d_rot d = rot_bytes R /\
    StronglySorted (fun a b => fst a < fst b) R /\
    (d_wal d = Some (fbytes ew ++ t) \/ (d_wal d = None /\ ew = [] /\ t = [])) /\ (t = [] \/ torn t) /\
    Forall genuine (all_entries R ew).

  Lemma rot_bytes_sorted : forall R, StronglySorted (fun a b => fst a < fst b) R ->
    StronglySorted (fun a b => fst a < fst b) (rot_bytes R).
  Proof.
    intros R H. induction H as [|x tl Hs IH Hf]; [constructor|]. constructor; [exact IH|].
    apply Forall_map. exact Hf.
  Qed.
  Lemma parse_fbytes : forall es t, t = [] \/ torn t -> fst (parse (fbytes es ++ t)) = map ser es.
  Proof.
    intros es t [-> | Ht]; unfold fbytes;
      [rewrite app_nil_r, parse_exact | rewrite parse_torn_tail]; auto using small_sers.
  Qed.

  Lemma shape_bodies : forall d R ew t, LogShape d R ew t -> bodies_of (wal_files d) = map ser (all_entries R ew).
  Proof.
    intros d R ew t (Hr & Hs & Hw & Ht & _). unfold wal_files, bodies_of, all_entries.
    rewrite Hr, sort_asc_of_sorted by (apply rot_bytes_sorted, Hs).
    rewrite flat_map_app, map_app, concat_map. f_equal.
    - unfold rot_bytes. rewrite flat_map_concat_map, !map_map. f_equal. apply map_ext. intro p. cbn [snd].
      rewrite <- (app_nil_r (fbytes _)). apply parse_fbytes. auto.
    - destruct Hw as [-> | (-> & -> & _)]; cbn [flat_map]; [rewrite parse_fbytes by exact Ht; apply app_nil_r | reflexivity].
  Qed.

  Definition SnapShape (d : disk) (S0 : state) (cs : N) : Prop :=
    StronglySorted (fun a b => fst b < fst a) (d_snap d) /\
    match d_snap d with
    | [] => S0 = [] /\ cs = 0
    | (ts, b) :: _ => exists h, snap_valid b = Some (h, S0) /\ h_txid h = cs
    end.

  (* the snapshot covers a prefix of the log.  Recovery replays all of [E] on top of the snapshot
     and never compares an id with [cs]: the two bounds are kept and not used *)
  Definition Cover (S0 : state) (cs : N) (E : list entry) (M : state) : Prop :=
    exists X L0 E1 E2, E = E1 ++ E2 /\ S0 ≈ apply_changes X (L0 ++ effs E1) /\
      Forall (fun e => e_txid e <= cs) E1 /\ Forall (fun e => cs < e_txid e) E2 /\
      M ≈ apply_changes X (L0 ++ effs E).

  (* replaying the covered records again on top of the snapshot changes nothing *)
  Lemma cover_recover : forall S0 cs E M, Cover S0 cs E M -> apply_changes S0 (effs E) ≈ M.
  Proof.
    intros S0 cs E M (X & L0 & E1 & E2 & -> & HS & _ & _ & HM). rewrite effs_app in *.
    exact (steq_trans _ _ _ (replay_overlap X L0 (effs E1) (effs E2) S0 HS) (steq_sym _ _ HM)).
  Qed.

  (* the disk invariant: M = committed state, C = the transaction counter recovery will return
     (the largest id on disk), t = what a cut write left at the end of state.wal ([] on the disks
     between operations).  [recover_DInv] reads the two shapes, [Cover] and the last clause, and
     [covered_rots] the bound [<= C]; the order of the ids is kept and not used. *)
  Definition DInvG (d : disk) (M : state) (C : N) (t : bytes) : Prop :=
    exists R ew S0 cs,
      LogShape d R ew t /\ SnapShape d S0 cs /\ Cover S0 cs (all_entries R ew) M /\
      StronglySorted (fun a b => e_txid a < e_txid b) (all_entries R ew) /\
      Forall (fun e => e_txid e <= C) (all_entries R ew) /\ cs <= C /\
      max_txid cs (all_entries R ew) = C.
  Definition DInv (d : disk) (M : state) (C : N) : Prop := exists t, DInvG d M C t.

  Lemma recover_DInv : forall d M C, DInv d M C -> r_state (recover d) ≈ M /\ r_ctr (recover d) = C.
  Proof.
    intros d M C (t & R & ew & S0 & cs & Hl & (Hss & Hh) & Hc & _ & _ & _ & Hmx).
    assert (Hld : sc (load_snaps (sort_desc (d_snap d)) stats0) = (S0, cs)).
    { rewrite sort_desc_of_sorted by assumption. destruct (d_snap d) as [|[ts b] tl]; [destruct Hh as [-> ->]; reflexivity|].
      destruct Hh as [h [Hv <-]]. cbn [Wal.load_snaps]. rewrite Hv. reflexivity. }
    unfold r_state, r_ctr. change (fst (recover d)) with (sc (recover d)). unfold Wal.recover.
    rewrite fold_files_sc, (shape_bodies d R ew t Hl), Hld, replay_sc_genuine by apply Hl.
    split; [exact (cover_recover _ _ _ _ Hc) | exact Hmx].
  Qed.

  (* the part of the invariant that speaks of the records only: the tail of [DInvG] as it stands,
     so that a step which leaves the records alone passes it on ([DInvG_intro]) *)
  Definition Ents (S0 : state) (cs : N) (E : list entry) (M : state) (C : N) : Prop :=
    Cover S0 cs E M /\ StronglySorted (fun a b => e_txid a < e_txid b) E /\
    Forall (fun e => e_txid e <= C) E /\ cs <= C /\ max_txid cs E = C.

  Lemma DInvG_intro : forall d R ew S0 cs M C t,
    LogShape d R ew t -> SnapShape d S0 cs -> Ents S0 cs (all_entries R ew) M C -> DInvG d M C t.
  Proof. intros d R ew S0 cs M C t Hl Hs He. exists R, ew, S0, cs. exact (conj Hl (conj Hs He)). Qed.

  Lemma DInvG_steq : forall d M M' C t, M ≈ M' -> DInvG d M C t -> DInvG d M' C t.
  Proof.
    intros d M M' C t HM (R & ew & S0 & cs & Hl & Hs & (X & L0 & E1 & E2 & HE & HS & H1 & H2 & HMM) & H).
    exists R, ew, S0, cs. split; [exact Hl|]. split; [exact Hs|]. split; [|exact H].
    exists X, L0, E1, E2. repeat split; try assumption. intro k. rewrite <- HM. apply HMM.
  Qed.

  Lemma Ents_snoc : forall S0 cs E M C e, Ents S0 cs E M C -> C < e_txid e ->
    Ents S0 cs (E ++ [e]) (apply_changes M (eff e)) (e_txid e).
  Proof.
    intros S0 cs E M C e ((X & L0 & E1 & E2 & -> & HS & H1 & H2 & HM) & Hso & Hb & Hcs & Hmx) Hlt.
    assert (Hb' : Forall (fun x => e_txid x < e_txid e) (E1 ++ E2)) by (eapply Forall_impl; [|exact Hb]; cbn; intros; lia).
    split; [|split; [|split; [|split]]].
    - exists X, L0, E1, (E2 ++ [e]). rewrite app_assoc. split; [reflexivity|]. split; [exact HS|]. split; [exact H1|].
      split; [apply Forall_app; split; [exact H2 | repeat constructor; lia]|].
      rewrite effs_app, app_assoc, apply_changes_app. unfold effs at 2. cbn [flat_map]. rewrite app_nil_r.
      apply apply_changes_steq, HM.
    - apply sorted_snoc; assumption.
    - apply Forall_app. split; [eapply Forall_impl; [|exact Hb']; cbn; intros; lia | repeat constructor; lia].
    - lia.
    - unfold max_txid in *. rewrite fold_left_app, Hmx. cbn. lia.
  Qed.

  (* once a snapshot of the whole committed state is the newest one, the records before it
     add nothing, and the oldest of them may go *)
  Definition Full (S0 : state) (C : N) (E : list entry) (M : state) : Prop :=
    (exists X L0, S0 ≈ apply_changes X (L0 ++ effs E)) /\ M ≈ S0 /\
    StronglySorted (fun a b => e_txid a < e_txid b) E /\ Forall (fun e => e_txid e <= C) E.

  Lemma Full_Ents : forall S0 C E M, Full S0 C E M -> Ents S0 C E M C.
  Proof.
    intros S0 C E M ((X & L0 & HS) & HM & Hso & Hb). split; [|split; [exact Hso | split; [exact Hb | split; [reflexivity|]]]].
    - exists X, L0, E, []. rewrite app_nil_r. repeat split; try assumption; try constructor.
      eapply steq_trans; eassumption.
    - apply N.le_antisymm; [apply fold_max_le; [reflexivity | exact Hb] | apply fold_max_ge].
  Qed.
  Lemma Ents_Full : forall S0 cs E M C S1 C2, Ents S0 cs E M C -> C <= C2 -> S1 ≈ M -> Full S1 C2 E M.
  Proof.
    intros S0 cs E M C S1 C2 ((X & L0 & E1 & E2 & _ & _ & _ & _ & HM) & Hso & Hb & _) HC HS.
    split; [exists X, L0; eapply steq_trans; eassumption|]. split; [apply steq_sym, HS|]. split; [exact Hso|].
    eapply Forall_impl; [|exact Hb]. cbn. intros; lia.
  Qed.
  Lemma Full_drop : forall S0 C F E M, Full S0 C (F ++ E) M -> Full S0 C E M.
  Proof.
    intros S0 C F E M ((X & L0 & HS) & HM & Hso & Hb). split; [|split; [exact HM | split]].
    - exists X, (L0 ++ effs F). rewrite <- app_assoc, <- effs_app. exact HS.
    - eapply sorted_app_r, Hso.
    - apply Forall_app in Hb. apply Hb.
  Qed.

  Lemma all_entries_snoc : forall R ew e, all_entries R (ew ++ [e]) = all_entries R ew ++ [e].
  Proof. intros. unfold all_entries. rewrite app_assoc. reflexivity. Qed.
  Lemma fbytes_snoc : forall ew e, fbytes (ew ++ [e]) = fbytes ew ++ frame (ser e).
  Proof. intros. unfold fbytes. rewrite map_app, frames_app. f_equal. apply app_nil_r. Qed.

  (* a record appended to a clean log: whole, one more operation is committed; if the
     process dies inside the write, the bytes form a torn tail and nothing is committed *)
  Lemma step_append d M C e y : DInvG d M C [] -> d_wal d = Some y -> genuine e -> C < e_txid e ->
    DInvG (exec1 d (AAppend FWal (frame (ser e)))) (apply_changes M (eff e)) (e_txid e) [] /\
    forall n, (0 < n < length (frame (ser e)))%nat ->
      DInvG (exec1 d (AAppend FWal (firstn n (frame (ser e))))) M C (firstn n (frame (ser e))).
  Proof.
    intros (R & ew & S0 & cs & (Hr & HRs & Hw & _ & Hgs) & Hs & He) Hy Hg Hlt.
    destruct Hw as [Hw | [Hw _]]; [|congruence]. rewrite app_nil_r in Hw.
    cbn [exec1 read]. rewrite Hw. split; [|intros n Hn].
    - apply (DInvG_intro _ R (ew ++ [e]) S0 cs); [|exact Hs | rewrite all_entries_snoc; exact (Ents_snoc _ _ _ _ _ _ He Hlt)].
      repeat split; try assumption; [left; cbn; rewrite fbytes_snoc, app_nil_r; reflexivity | auto|].
      rewrite all_entries_snoc. apply Forall_app. auto.
    - apply (DInvG_intro _ R ew S0 cs); [|exact Hs | exact He].
      repeat split; try assumption; [left; reflexivity | right; apply strict_prefix_torn; auto].
  Qed.

  Lemma step_create_wal d M C t : DInvG d M C t -> d_wal d = None ->
    DInvG (exec1 d (ACreate FWal)) M C [] /\ d_wal (exec1 d (ACreate FWal)) = Some [].
  Proof.
    intros (R & ew & S0 & cs & (Hr & HRs & Hw & _ & Hgs) & Hs & He) Hn.
    destruct Hw as [Hw | (_ & -> & _)]; [congruence|]. cbn [exec1 read]. rewrite Hn. split; [|reflexivity].
    apply (DInvG_intro _ R [] S0 cs); [|exact Hs | exact He]. repeat split; try assumption; left; reflexivity.
  Qed.

  (* rotation: rename to the next free sequence number (re-creation of state.wal follows) *)
  Lemma step_rotate d M C y : DInvG d M C [] -> d_wal d = Some y ->
    let d1 := exec1 d (ARename FWal (FRot (next_seq d))) in DInvG d1 M C [] /\ d_wal d1 = None.
  Proof.
    intros (R & ew & S0 & cs & (Hr & HRs & Hw & _ & Hgs) & Hs & He) Hy.
    destruct Hw as [Hw | [Hw _]]; [|congruence]. rewrite app_nil_r in Hw.
    assert (Hall : all_entries (R ++ [(next_seq d, ew)]) [] = all_entries R ew).
    { unfold all_entries. rewrite map_app, concat_app. cbn. rewrite !app_nil_r. reflexivity. }
    cbn [exec1 read]. rewrite Hw. split; [|reflexivity].
    apply (DInvG_intro _ (R ++ [(next_seq d, ew)]) [] S0 cs); [|exact Hs | rewrite Hall; exact He].
    unfold LogShape. cbn [unlink write d_wal d_rot]. unfold aput_back. rewrite Hall, aupdate_none
      by (intros p Hp; pose proof (next_seq_gt d p Hp); lia).
    repeat split; auto; [rewrite Hr; unfold rot_bytes; rewrite map_app; reflexivity|].
    apply sorted_snoc; [exact HRs|]. apply Forall_forall. intros p Hp.
    apply (next_seq_gt d (fst p, fbytes (snd p))). rewrite Hr. exact (in_map _ _ _ Hp).
  Qed.

  (* the disks a crash can leave are those of the old or of the new committed state *)
  Definition cut_ok (M : state) (C : N) (M' : state) (C' : N) (d : disk) : Prop := DInv d M C \/ DInv d M' C'.
  Lemma cut_old {M C M' C' d t} : DInvG d M C t -> cut_ok M C M' C' d.
  Proof. left. exists t. assumption. Qed.
  Lemma cut_new {M C M' C' d t} : DInvG d M' C' t -> cut_ok M C M' C' d.
  Proof. right. exists t. assumption. Qed.
  (* recovery reads no temporary file *)
  Lemma DInv_ext d d' M C : d_wal d' = d_wal d -> d_rot d' = d_rot d -> d_snap d' = d_snap d -> DInv d M C -> DInv d' M C.
  Proof.
    intros Hw Hr Hs (t & R & ew & S0 & cs & Hl & Hsn & He). exists t, R, ew, S0, cs.
    unfold LogShape, SnapShape in *. rewrite Hw, Hr, Hs. auto.
  Qed.
  Lemma cut_ok_tmp M C M' C' d t b : cut_ok M C M' C' d -> cut_ok M C M' C' (write d (FTmp t) b).
  Proof. intros [H | H]; [left | right]; revert H; apply DInv_ext; reflexivity. Qed.

  Lemma write_steps d w M C e y rot M' : DInvG d M C [] -> d_wal d = Some y -> genuine e -> C < e_txid e ->
    apply_changes M (eff e) ≈ M' ->
    steps (cut_ok M C M' (e_txid e))
          (fun d' => DInvG d' M' (e_txid e) [] /\ d_snap d' = d_snap d /\ exists y', d_wal d' = Some y')
          d (fst (write_actions ser d w e rot)).
  Proof.
    intros HI Hy Hg Hlt HM. destruct (step_append d M C e y HI Hy Hg Hlt) as [Hfull%(DInvG_steq _ _ _ _ _ HM) Hcut].
    set (d1 := exec1 d (AAppend FWal (frame (ser e)))) in *.
    assert (Hy1 : d_wal d1 = Some (y ++ frame (ser e))) by (unfold d1; cbn; rewrite Hy; reflexivity).
    destruct (step_rotate d1 _ _ _ Hfull Hy1) as [H2 Hn]. destruct (step_create_wal _ _ _ _ H2 Hn) as [H3 Hy3].
    change (next_seq d1) with (next_seq d) in *.
    (* the old state up to and inside the append, the new one from its end on *)
    unfold write_actions. destruct (rot && _); cbn [fst steps].
    - (* rotation follows: rename, re-creation *)
      split; [exact (cut_old HI)|]. split; [intros n Hlen; exact (cut_old (Hcut n Hlen))|].
      split; [exact (cut_new Hfull)|]. split; [exact I|]. split; [exact (cut_new H2)|]. split; [exact I|].
      split; [exact (cut_new H3)|]. split; [exact H3|]. split; [reflexivity | eauto].
    - split; [exact (cut_old HI)|]. split; [intros n Hlen; exact (cut_old (Hcut n Hlen))|].
      split; [exact (cut_new Hfull)|]. split; [exact Hfull|]. split; [reflexivity | eauto].
  Qed.

  Notation snap_file := (snap_file ser_hdr).

  Lemma snap_file_valid : forall mem h, h_tag h = mac (snap_fields h (enc_map mem)) ->
    exists st', snap_valid (snap_file h (enc_map mem)) = Some (h, st') /\ st' ≈ mem.
  Proof.
    intros mem h Htag. destruct (Hmap mem) as [st' [Hd He]]. exists st'. split; [|exact He].
    unfold Wal.snap_valid, Wal.split_snap, Wal.snap_file.
    destruct (frame_head (ser_hdr h) (enc_map mem) (Hhdr_small h)) as [Hv Hk].
    rewrite Hv, Hk, !len_app, frame_len. do 2 (case_if; [lia|]).
    replace (N.to_nat (len (ser_hdr h))) with (length (ser_hdr h)) by (symmetry; apply Nat2N.id).
    rewrite firstn_len_app, skipn_len_app.
    rewrite Hhdr, Hd, Htag, bytes_eqb_refl. reflexivity.
  Qed.

  Lemma aremove_head_sorted : forall (R : list (N * list entry)) n F,
    StronglySorted (fun a b => fst a < fst b) ((n, F) :: R) -> aremove n (rot_bytes ((n, F) :: R)) = rot_bytes R.
  Proof.
    intros R n F H. inv H. unfold aremove. cbn [rot_bytes map filter fst]. rewrite N.eqb_refl. cbn [negb].
    apply filter_all, Forall_forall. intros p Hp. apply in_map_iff in Hp as [q [<- Hq]]. rewrite Forall_forall in H3.
    specialize (H3 q Hq). cbn in *. apply negb_true_iff, N.eqb_neq. lia.
  Qed.

  (* what holds from the rename of a checkpoint on: the newest snapshot, named [ts], holds
     the whole committed state; state.wal is not touched *)
  Section Cleanup.
    Variables (M : state) (C : N) (wal0 : option bytes) (ts : N).

    Definition Checkpointed (d : disk) : Prop :=
      (exists R ew S0, LogShape d R ew [] /\ SnapShape d S0 C /\ Full S0 C (all_entries R ew) M) /\
      d_wal d = wal0 /\ snap_hi d = ts.

    Lemma Checkpointed_DInvG d : Checkpointed d -> DInvG d M C [].
    Proof. intros ((R & ew & S0 & Hl & Hs & HF) & _). exact (DInvG_intro _ _ _ _ _ _ _ _ Hl Hs (Full_Ents _ _ _ _ HF)). Qed.

    Lemma step_unlink_rot p l d : Checkpointed d /\ d_rot d = p :: l ->
      Checkpointed (exec1 d (AUnlink (FRot (fst p)))) /\ d_rot (exec1 d (AUnlink (FRot (fst p)))) = l.
    Proof.
      intros [((R & ew & S0 & (Hr & HRs & Hw & Ht & Hg) & Hs & HF) & Hwal & Hsn) Hrot].
      rewrite Hr in Hrot. destruct R as [|[n F] R']; [discriminate|]. injection Hrot as <- <-.
      cbn [exec1 unlink d_rot fst]. rewrite Hr, (aremove_head_sorted R' n F HRs). split; [|reflexivity].
      assert (Hall : all_entries ((n, F) :: R') ew = F ++ all_entries R' ew) by (unfold all_entries; cbn; apply app_assoc_reverse).
      rewrite Hall in *. apply Forall_app in Hg as [_ Hg]. apply StronglySorted_inv in HRs as [HRs _].
      split; [|split; assumption]. exists R', ew, S0.
      split; [repeat split; assumption|]. split; [exact Hs | exact (Full_drop _ _ _ _ _ HF)].
    Qed.

    Lemma step_unlink_snap x l d : Checkpointed d /\ Forall (fun x => x <> ts) (x :: l) ->
      Checkpointed (exec1 d (AUnlink (FSnap x))) /\ Forall (fun x => x <> ts) l.
    Proof.
      intros [((R & ew & S0 & Hl & (Hss & Hh) & HF) & Hwal & Hsn) [Hx Hk]%Forall_cons_iff]. split; [|exact Hk].
      unfold Checkpointed, SnapShape, snap_hi in *. cbn [exec1 unlink d_wal d_snap].
      split; [exists R, ew, S0; split; [exact Hl|]; split; [split|exact HF] | split; [exact Hwal|]].
      - exact (ss_filter _ _ _ Hss).
      - (* the newest one, named [ts], is not [x]: it stays at the head *)
        destruct (d_snap d) as [|[t0 b0] tl]; [exact Hh|]. rewrite aremove_keeps_head by congruence. exact Hh.
      - destruct (d_snap d) as [|[t0 b0] tl]; [exact Hsn|]. rewrite aremove_keeps_head by congruence. exact Hsn.
    Qed.

    (* the clean-up of a checkpoint: every rotated log, oldest first, then snapshots other than [ts] *)
    Lemma cleanup_steps (P Q : disk -> Prop) d rots keys : (forall d', Checkpointed d' -> P d' /\ Q d') -> Checkpointed d -> d_rot d = rots ->
      Forall (fun x => x <> ts) keys ->
      steps P Q d (map (fun p => AUnlink (FRot (fst p))) rots ++ map (fun x => AUnlink (FSnap x)) keys).
    Proof.
      intros HP Hd Hr Hk. apply steps_app.
      apply (steps_unlinks (fun l d' => Checkpointed d' /\ d_rot d' = l) (fun p => FRot (fst p)));
        [apply step_unlink_rot | intros l d' [H _]; apply HP, H | | auto].
      intros d' [H _]. apply (steps_unlinks (fun l d' => Checkpointed d' /\ Forall (fun x => x <> ts) l) FSnap);
        [apply step_unlink_snap | intros l d'' [H' _]; apply HP, H' | intros d'' [H' _]; apply HP, H' | auto].
    Qed.
  End Cleanup.

  Lemma wal_max_txid_fbytes : forall F, wal_max_txid deser (fbytes F) = Some (max_txid 0 F).
  Proof.
    intro F. unfold wal_max_txid, fbytes. rewrite parse_exact by apply small_sers. f_equal.
    unfold max_txid. generalize 0. induction F as [|e tl IH]; intro m; [reflexivity|]. cbn [map fold_left]. rewrite Hser. apply IH.
  Qed.

  (* writer state and disk agree: M is the committed state, C the counter recovery would
     return; the writer's own counter may be ahead (ids consumed without a record) *)
  Definition WInv (d : disk) (w : wstate) (M : state) (C : N) : Prop :=
    DInvG d M C [] /\ C <= w_ctr w /\ (exists y, d_wal d = Some y) /\ w_mem w ≈ M.

  Notation op_actions := (op_actions deser mac ser enc_changes ser_hdr enc_map).
  Notation run_ops := (run_ops deser mac ser enc_changes ser_hdr enc_map).
  Notation crash_disk := (crash_disk deser mac ser enc_changes ser_hdr enc_map).
  Notation mk_entry := (mk_entry mac).

  (* a snapshot taken at a counter no record exceeds covers every rotated log: all are unlinked *)
  Lemma covered_rots d R ew t c : LogShape d R ew t -> Forall (fun e => e_txid e <= c) (all_entries R ew) ->
    filter (fun p : N * bytes => match wal_max_txid deser (snd p) with Some m => m <=? c | None => false end)
           (sort_asc (d_rot d)) = d_rot d.
  Proof.
    intros (Hrot & HRs & _) [Hb _]%Forall_app. rewrite Forall_concat, Forall_map, Forall_forall in Hb.
    rewrite Hrot, sort_asc_of_sorted by (apply rot_bytes_sorted, HRs). apply filter_all, Forall_forall. intros p Hp.
    apply in_map_iff in Hp as [q [<- Hq]]. cbn [snd]. rewrite wal_max_txid_fbytes.
    apply N.leb_le, fold_max_le; [lia | exact (Hb q Hq)].
  Qed.

  Lemma retention_pos : 1 <= WAL_SNAPSHOT_RETENTION.
  Proof. discriminate. Qed.

  (* the names to prune never include the new snapshot, as long as one snapshot is retained *)
  Lemma pruned_not_newest d ts n : 1 <= n -> StronglySorted (fun a b => fst b < fst a) (d_snap d) -> snap_hi d <= ts ->
    Forall (fun x => x <> ts) (map fst (drop_n n (sort_desc (aput_front ts [] (d_snap d))))).
  Proof.
    intros Hn Hss Hts. destruct (aput_front_newest d ts [] Hss Hts) as (tl & Heq & Hs).
    unfold bytes in *. rewrite Heq, sort_desc_of_sorted by exact Hs. apply StronglySorted_inv in Hs as [_ Hf].
    unfold drop_n. destruct (N.to_nat n) as [|m] eqn:Em; [lia|]. rewrite skipn_cons.
    rewrite <- (firstn_skipn m tl) in Hf. apply Forall_app in Hf as [_ Hf].
    apply Forall_map. revert Hf. apply Forall_impl. cbn. intros; lia.
  Qed.

  (* every crash cut of a checkpoint leaves the committed state alone; the counter can only
     grow.  The temporary file is invisible to recovery; from the rename on [Checkpointed] holds. *)
  Lemma checkpoint_steps : forall d w M C ts, WInv d w M C -> snap_hi d <= ts ->
    steps (cut_ok M C M (w_ctr w))
          (fun d' => DInvG d' M (w_ctr w) [] /\ d_wal d' = d_wal d /\ snap_hi d' = ts)
          d (fst (op_actions d w (OCheckpoint ts))).
  Proof.
    intros d w M C ts (HI & HC & _ & Hm) Hts. cbn [Wal.op_actions fst].
    set (data := enc_map (w_mem w)).
    set (h := mkHdr WAL_VERSION ts (w_ctr w) (len (w_mem w)) (len data) (mac _)).
    destruct (snap_file_valid (w_mem w) h eq_refl) as (st' & Hv & He).
    pose proof HI as (R & ew & S0 & cs & Hl & (Hss & _) & HE). pose proof HE as (_ & _ & Hb & _).
    rewrite (covered_rots d R ew [] (w_ctr w) Hl), <- (map_map fst (fun x => AUnlink (FSnap x)))
      by (revert Hb; apply Forall_impl; intros; lia).
    (* until the rename only the temporary file is written *)
    assert (H0 : cut_ok M C M (w_ctr w) d) by exact (cut_old HI).
    cbn [steps app]. split; [exact H0|]. split; [exact I|].
    split; [apply cut_ok_tmp, H0|]. split; [intros; do 2 apply cut_ok_tmp; exact H0|].
    split; [do 2 apply cut_ok_tmp; exact H0|]. split; [intros; do 3 apply cut_ok_tmp; exact H0|].
    split; [do 3 apply cut_ok_tmp; exact H0|]. split; [exact I|].
    set (d1 := exec1 _ (AAppend (FTmp ts) data)).
    assert (Hrd : read d1 (FTmp ts) = Some (snap_file h data))
      by (unfold d1, Wal.snap_file; cbn [exec1 read write d_tmp]; rewrite !(@alookup_aput_front bytes ts); reflexivity).
    cbn [exec1]. rewrite Hrd.
    apply (cleanup_steps M (w_ctr w) (d_wal d) ts);
      [| |reflexivity | exact (pruned_not_newest d ts WAL_SNAPSHOT_RETENTION retention_pos Hss Hts)].
    - intros d' H. pose proof (Checkpointed_DInvG _ _ _ _ _ H) as HD. split; [exact (cut_new HD) | split; [exact HD | apply H]].
    - (* the rename makes the file the newest snapshot *)
      destruct (aput_front_newest d ts (snap_file h data) Hss Hts) as (tl & Heq & Hs').
      unfold Checkpointed, snap_hi, SnapShape, d1. cbn [exec1 unlink write d_wal d_snap]. rewrite Heq. split; [|auto].
      exists R, ew, st'. split; [exact Hl|]. split; [eauto | exact (Ents_Full _ _ _ _ _ _ _ HE HC (steq_trans _ _ _ He Hm))].
  Qed.

  (* every stored value decodes as a value of the stored type *)
  Definition mem_ok (st : state) : Prop := forall k v, get st k = Some v -> val_ok v = true.
  Definition changes_ok (cs : list change) : Prop := forall k v, In (k, Some v) cs -> val_ok v = true.
  Lemma mem_ok_steq : forall a b, a ≈ b -> mem_ok a -> mem_ok b.
  Proof. intros a b H Ha k v Hg. apply (Ha k v). rewrite H. exact Hg. Qed.
  Lemma mem_ok_apply_changes : forall cs st, mem_ok st -> changes_ok cs -> mem_ok (apply_changes st cs).
  Proof.
    intros cs st Hs Hc k v Hg. apply get_apply_changes_src in Hg as [Hg | Hg]; [exact (Hc k v Hg) | exact (Hs k v Hg)].
  Qed.

  Definition op_ok (d : disk) (o : op) : Prop :=
    match o with
    | OUpsert _ _ v => val_ok v = true
    | ODelete _ _ | OBatchFail => True
    | OCheckpoint ts => snap_hi d <= ts
    | OBatch _ cs => changes_ok cs
    end.
  Lemma mem_ok_apply_op : forall d M o, mem_ok M -> op_ok d o -> mem_ok (apply_op M o).
  Proof.
    intros d M o HM Ho. apply mem_ok_apply_changes; [exact HM|].
    destruct o; cbn in *; intros k' v' Hin; try contradiction.
    - destruct Hin as [[= _ <-] | []]. exact Ho.
    - destruct Hin as [[=] | []].
    - exact (Ho k' v' Hin).
  Qed.

  (* the shape upsert, delete and batch share in [op_actions]: the record [e] is logged, the
     writer's map becomes [mem'] and the next id is taken *)
  Definition logged (d : disk) (w : wstate) (e : entry) (mem' : state) (rot : bool) : list action * wstate :=
    let '(acts, w') := write_actions ser d w e rot in (acts, mkW mem' (w_ctr w + 1) (w_count w') (w_size w')).

  (* ... where the record's changes [cs'] have the effect of [cs] on the committed state *)
  Lemma logged_steps d w M C ts t k v cs' cs rot : WInv d w M C ->
    entry_changes (mk_entry (w_ctr w + 1) ts t k v) = Some cs' -> apply_changes M cs' ≈ apply_changes M cs ->
    let r := logged d w (mk_entry (w_ctr w + 1) ts t k v) (apply_changes (w_mem w) cs) rot in
    exists C', C <= C' /\
      steps (cut_ok M C (apply_changes M cs) C')
            (fun d' => WInv d' (snd r) (apply_changes M cs) C' /\ snap_hi d' = snap_hi d) d (fst r).
  Proof.
    intros (HI & HC & (y & Hy) & Hm%(apply_changes_steq cs)) Hc Heq. set (e := mk_entry _ _ _ _ _) in *.
    assert (Hg : genuine e) by (split; [apply bytes_eqb_refl | eauto]).
    assert (Heff : apply_changes M (eff e) ≈ apply_changes M cs) by (unfold eff; rewrite Hc; exact Heq).
    assert (Hlt : C < e_txid e) by (unfold e; cbn; lia).
    pose proof (write_steps d w M C e y rot _ HI Hy Hg Hlt Heff) as Hst.
    exists (e_txid e). split; [lia|].
    unfold logged. destruct (write_actions ser d w e rot) as [acts w']. revert Hst. apply steps_weaken.
    intros d' (HI' & Hsn & Hw). unfold WInv, snap_hi. rewrite Hsn. auto using N.le_refl.
  Qed.

  Lemma op_steps : forall d w M C o, WInv d w M C -> mem_ok M -> op_ok d o ->
    exists C', C <= C' /\
      steps (cut_ok M C (apply_op M o) C')
            (fun d' => WInv d' (snd (op_actions d w o)) (apply_op M o) C' /\
                       snap_hi d' = match o with OCheckpoint ts => ts | _ => snap_hi d end)
            d (fst (op_actions d w o)).
  Proof.
    intros d w M C o HW HMok Hs. pose proof HW as (HI & HC & Hy & Hm).
    assert (HC1 : C <= w_ctr w + 1) by lia. unfold apply_op. destruct o as [ts k v | ts k | ts cs | | ts]; cbn [op_changes] in *; cbn in Hs.
    - refine (logged_steps d w M C ts TUpsert k (Some v) _ [(k, Some v)] true HW _ (steq_refl _)).
      cbn. rewrite Hs. reflexivity.
    - exact (logged_steps d w M C ts TDelete k None _ [(k, None)] true HW eq_refl (steq_refl _)).
    - (* batch: one record holding the sorted difference between the old and the new map *)
      set (mem' := apply_changes (w_mem w) cs).
      assert (Hmem' : mem' ≈ apply_changes M cs) by (apply apply_changes_steq; exact Hm).
      pose proof (steq_trans _ _ _ (batch_diff_apply (w_mem w) mem' M Hm) Hmem') as Hdiff.
      unfold Wal.op_actions. fold mem'. destruct (batch_diff (w_mem w) mem') as [|c0 dtl] eqn:Ed.
      + (* nothing changed: no record, the id is consumed *)
        exists C. split; [apply N.le_refl|].
        exact (conj (cut_old HI) (conj (conj (DInvG_steq _ _ _ _ _ Hdiff HI) (conj HC1 (conj Hy Hmem'))) eq_refl)).
      + refine (logged_steps d w M C ts TBatch [] (Some (enc_changes (c0 :: dtl))) (c0 :: dtl) cs false HW _ Hdiff).
        unfold Wal.entry_changes. cbn [e_type e_val Wal.mk_entry]. rewrite Hchg.
        replace (forallb _ _) with true; [reflexivity|]. symmetry. apply forallb_forall. intros [k' [v'|]] Hin; [|reflexivity].
        rewrite <- Ed in Hin. apply batch_diff_in in Hin as [_ Hin]. cbn.
        exact (mem_ok_apply_changes cs _ (mem_ok_steq _ _ (steq_sym _ _ Hm) HMok) Hs k' v' (eq_sym Hin)).
    - exists C. split; [apply N.le_refl|]. exact (conj (cut_old HI) (conj (conj HI (conj HC1 (conj Hy Hm))) eq_refl)).
    - exists (w_ctr w). split; [exact HC|]. generalize (checkpoint_steps d w M C ts HW Hs). apply steps_weaken.
      intros d' (H1 & H2 & H3). unfold WInv. rewrite H2. auto using N.le_refl.
  Qed.

  (* histories: values are well-formed and checkpoint names never go backwards *)
  Fixpoint ops_ok (hi : N) (ops : list op) : Prop :=
    match ops with
    | [] => True
    | o :: tl => match o with
                 | OUpsert _ _ v => val_ok v = true /\ ops_ok hi tl
                 | ODelete _ _ | OBatchFail => ops_ok hi tl
                 | OCheckpoint ts => hi <= ts /\ ops_ok ts tl
                 | OBatch _ cs => changes_ok cs /\ ops_ok hi tl
                 end
    end.

  Lemma ops_ok_head : forall hi o tl d, ops_ok hi (o :: tl) -> snap_hi d <= hi ->
    op_ok d o /\ ops_ok (match o with OCheckpoint ts => ts | _ => hi end) tl.
  Proof. intros hi o tl d H Hhi. destruct o; cbn in *; try tauto. destruct H. split; [lia | assumption]. Qed.

  Lemma crash_disk_cons : forall d w o tl i a b, crash_disk d w (o :: tl) i a b =
    match i with
    | O => exec d (cut (fst (op_actions d w o)) a b)
    | S j => crash_disk (exec d (fst (op_actions d w o))) (snd (op_actions d w o)) tl j a b
    end.
  Proof.
    intros. destruct i; [reflexivity|]. unfold Wal.crash_disk. cbn [firstn Wal.run_ops nth_error].
    destruct (op_actions d w o). reflexivity.
  Qed.

  Lemma crash_prefix : forall ops d w M C hi i a b, WInv d w M C -> mem_ok M -> snap_hi d <= hi -> ops_ok hi ops ->
    exists j C', (i <= j <= S i)%nat /\ C <= C' /\ DInv (crash_disk d w ops i a b) (apply_ops M (firstn j ops)) C' /\
                 mem_ok (apply_ops M (firstn j ops)).
  Proof.
    induction ops as [|o tl IH]; intros d w M C hi i a b HW HMok Hhi Hok.
    - exists i, C. rewrite firstn_nil. split; [lia|]. split; [apply N.le_refl|]. split; [|exact HMok].
      exists []. unfold Wal.crash_disk. rewrite firstn_nil. destruct i; exact (proj1 HW).
    - destruct (ops_ok_head hi o tl d Hok Hhi) as [Ho Htl].
      destruct (op_steps d w M C o HW HMok Ho) as (C1 & HC1 & Hst).
      destruct (steps_end _ _ _ _ Hst) as [HW1 Hsn].
      pose proof (mem_ok_apply_op d M o HMok Ho) as HMok1.
      rewrite crash_disk_cons. destruct i as [|i].
      + destruct (steps_cut _ _ _ _ Hst a b) as [H | H]; [exists 0%nat, C | exists 1%nat, C1]; auto using N.le_refl.
      + assert (Hhi1 : snap_hi (exec d (fst (op_actions d w o))) <= match o with OCheckpoint ts => ts | _ => hi end)
          by (rewrite Hsn; destruct o; try exact Hhi; apply N.le_refl).
        destruct (IH _ _ _ C1 _ i a b HW1 HMok1 Hhi1 Htl) as (j & C' & Hj & HC' & HD).
        exists (S j), C'. split; [lia|]. split; [exact (N.le_trans _ _ _ HC1 HC') | exact HD].
  Qed.

  Lemma open_WInv : forall d M C, DInv d M C -> WInv (open_disk d) (open_wstate deser mac val_ok dec_changes deser_hdr dec_map d) M C.
  Proof.
    intros d M C [t HI]. unfold open_wstate, open_rstate.
    destruct (d_wal d) as [y|] eqn:Hy.
    - (* state.wal present: a torn tail is cut off *)
      replace (exec d [ACreate FWal]) with d by (cbn; rewrite Hy; reflexivity).
      destruct (recover_DInv d M C (ex_intro _ t HI)) as [Hst ->].
      cut (DInvG (open_disk d) M C [] /\ exists y', d_wal (open_disk d) = Some y'); [intros [H1 H2]; repeat split; auto; cbn; lia|].
      pose proof HI as (R & ew & S0 & cs & (Hr & HRs & Hw & Ht & Hg) & Hs & He).
      destruct Hw as [Hw | [Hw _]]; [|congruence]. unfold open_disk, open_actions. rewrite Hw. unfold fbytes.
      destruct Ht as [-> | Ht].
      + rewrite app_nil_r, parse_exact by apply small_sers. split; [exact HI | eauto].
      + rewrite parse_torn_tail, good_len_torn by (auto using small_sers). cbn [snd exec fold_left exec1 read]. rewrite Hw.
        unfold len. rewrite Nat2N.id, firstn_len_app. split; [|cbn; eauto].
        apply (DInvG_intro _ R ew S0 cs); [|exact Hs | exact He].
        repeat split; auto. left. cbn. rewrite app_nil_r. reflexivity.
    - (* state.wal missing: created empty *)
      destruct (step_create_wal d M C t HI Hy) as [H1 H2]. unfold open_disk, open_actions. rewrite Hy.
      change (exec d [ACreate FWal]) with (exec1 d (ACreate FWal)).
      destruct (recover_DInv _ M C (ex_intro _ [] H1)) as [Hst ->]. repeat split; eauto. cbn. lia.
  Qed.

  Definition cyc := (list op * (nat * nat * nat))%type.
  Definition run_cycle (d : disk) (c : cyc) : disk :=
    let '(ops, (i, a, b)) := c in
    crash_disk (open_disk d) (open_wstate deser mac val_ok dec_changes deser_hdr dec_map d) ops i a b.
  Fixpoint run_cycles (d : disk) (cs : list cyc) : disk :=
    match cs with [] => d | c :: tl => run_cycles (run_cycle d c) tl end.
  (* in every cycle: well-formed values, and checkpoint names at or after the newest snapshot present *)
  Fixpoint cycles_ok (d : disk) (cs : list cyc) : Prop :=
    match cs with [] => True | c :: tl => ops_ok (snap_hi d) (fst c) /\ cycles_ok (run_cycle d c) tl end.
  (* the state left by the cycles: in each, a prefix of its operations with acked <= j <= issued *)
  Inductive survives : state -> list cyc -> state -> Prop :=
  | sv_nil : forall M M', M ≈ M' -> survives M [] M'
  | sv_cons : forall M ops i a b j tl M', (i <= j <= S i)%nat ->
      survives (apply_ops M (firstn j ops)) tl M' -> survives M ((ops, (i, a, b)) :: tl) M'.

  Lemma cycles_prefix : forall cs d M C, DInv d M C -> mem_ok M -> cycles_ok d cs ->
    exists M' C', C <= C' /\ DInv (run_cycles d cs) M' C' /\ survives M cs M'.
  Proof.
    induction cs as [|[ops [[i a] b]] tl IH]; intros d M C HD HMok Hok.
    - exists M, C. split; [apply N.le_refl|]. split; [exact HD | constructor; apply steq_refl].
    - destruct Hok as [Hops Htl].
      assert (Hhi : snap_hi (open_disk d) <= snap_hi d) by (rewrite open_snap_hi; lia).
      destruct (crash_prefix ops _ _ M C (snap_hi d) i a b (open_WInv d M C HD) HMok Hhi Hops) as (j & C1 & Hj & HC1 & HD1 & HM1).
      destruct (IH (run_cycle d (ops, (i, a, b))) _ C1 HD1 HM1 Htl) as (M' & C' & HC' & HD' & Hsv).
      exists M', C'. split; [exact (N.le_trans _ _ _ HC1 HC')|]. split; [exact HD'|]. econstructor; eassumption.
  Qed.
End WriterFacts.

