(* C12, Model/Counter.v.  Only the number last+1 is ever accepted, so a run from any store
   accepts from each peer exactly last+1, last+2, ... ([run_counts]); most C12 theorems are
   instances.  The invariant [Inv] (nothing remembered is above [last]) gives the converse:
   the history never stands in the way of last+1, and the verdict does not depend on it. *)
From SV Require Import Lib.Base Gen.CounterConsts Model.Counter.

Local Open Scope N_scope.

(* every remembered entry is at or below [last] *)
Definition Inv (c : pc) : Prop := Forall (fun e => e_seq e <= pc_last c) (pc_hist c).
Definition InvS (st : store) : Prop := forall p, Inv (st p).

Lemma invS_init : InvS st_init.
Proof. intro p. constructor. Qed.

Lemma has_seen_le c seq h : Inv c -> has_seen c seq h = true -> seq <= pc_last c.
Proof.
  unfold Inv, has_seen. rewrite Forall_forall. intros HI HS.
  apply existsb_exists in HS as (e & Hin & He). specialize (HI e Hin).
  apply andb_true_iff in He as [He _]. apply N.eqb_eq in He. lia.
Qed.

(* the two timestamp tests of [validate] *)
Definition in_window (now ts : N) : bool :=
  negb (now + CTR_FUTURE_SKEW_SECS <? ts) && negb (ts <? now - CTR_MAX_SEQUENCE_AGE_SECS).

(* Under [Inv] the history test is subsumed by [seq <= last]: what has been seen is not above
   [last], so the verdict is the one an empty history gives.  This is why neither the history
   cap nor [cleanup] can re-open a number. *)
Lemma validate_ignores_history now c seq h ts :
  Inv c -> validate now c seq h ts = validate now (mkPC (pc_last c) []) seq h ts.
Proof.
  intro HI. pose proof (has_seen_le c seq h HI) as HS. unfold validate. cbn [has_seen pc_hist pc_last existsb].
  destruct (has_seen c seq h); [specialize (HS eq_refl)|reflexivity].
  destruct (pc_last c + 1 <? seq) eqn:E1; [lia|].
  destruct (seq <=? pc_last c) eqn:E2; [reflexivity|lia].
Qed.

Lemma validate_valid_iff now c seq h ts :
  Inv c ->
  (validate now c seq h ts = Valid <->
   ts <= now + CTR_FUTURE_SKEW_SECS /\ now - CTR_MAX_SEQUENCE_AGE_SECS <= ts /\ seq = pc_last c + 1).
Proof.
  intro HI. rewrite validate_ignores_history by exact HI. unfold validate. cbn [has_seen pc_hist pc_last existsb].
  destruct (now + CTR_FUTURE_SKEW_SECS <? ts) eqn:E1; [split; [discriminate|lia]|].
  destruct (ts <? now - CTR_MAX_SEQUENCE_AGE_SECS) eqn:E2; [split; [discriminate|lia]|].
  destruct (pc_last c + 1 <? seq) eqn:E3; [split; [discriminate|lia]|].
  destruct (seq <=? pc_last c) eqn:E4; [split; [discriminate|lia]|].
  split; [lia|reflexivity].
Qed.

Lemma validate_valid_next now c seq h ts : validate now c seq h ts = Valid -> seq = pc_last c + 1.
Proof.
  unfold validate.
  destruct (now + CTR_FUTURE_SKEW_SECS <? ts), (ts <? now - CTR_MAX_SEQUENCE_AGE_SECS), (has_seen c seq h);
    try discriminate.
  destruct (pc_last c + 1 <? seq) eqn:E3; [discriminate|].
  destruct (seq <=? pc_last c) eqn:E4; [discriminate|]. lia.
Qed.

Lemma inv_apply c seq h ts : Inv c -> pc_last c <= seq -> Inv (apply_update c seq h ts).
Proof.
  unfold Inv, apply_update. intros HI Hle. cbn [pc_last pc_hist].
  assert (HF : Forall (fun e => e_seq e <= seq) (pc_hist c ++ [mkE seq ts h])).
  { apply Forall_app. split.
    - eapply Forall_impl; [|exact HI]. cbn beta. lia.
    - constructor; [cbn; lia|constructor]. }
  destruct (CTR_MAX_SEQUENCE_HISTORY <? _); [|exact HF].
  destruct HF; [constructor|assumption].
Qed.

Lemma inv_cleanup cutoff c : Inv c -> Inv (cleanup cutoff c).
Proof. unfold Inv, cleanup. cbn [pc_last pc_hist]. apply incl_Forall, incl_filter. Qed.

Lemma upd_same st p c : upd st p c p = c.
Proof. unfold upd. rewrite N.eqb_refl. reflexivity. Qed.

Lemma upd_other st p c q : q <> p -> upd st p c q = st q.
Proof. unfold upd. intro H. apply N.eqb_neq in H. rewrite H. reflexivity. Qed.

Lemma invS_step st o : InvS st -> InvS (fst (step st o)).
Proof.
  intros HI. destruct o as [now p seq h ts|cutoff]; cbn [step fst].
  - destruct (validate now (st p) seq h ts) eqn:EV; try exact HI.
    intro q. unfold upd. destruct (q =? p); [|apply HI].
    apply inv_apply; [apply HI|].
    apply validate_valid_next in EV. lia.
  - intro q. apply inv_cleanup, HI.
Qed.

Lemma run_cons st o ops :
  run st (o :: ops) =
  (fst (run (fst (step st o)) ops), snd (step st o) :: snd (run (fst (step st o)) ops)).
Proof.
  cbn [run]. destruct (step st o) as [st1 r]. cbn [fst snd].
  destruct (run st1 ops) as [st2 rs]. reflexivity.
Qed.

Lemma invS_run ops : forall st, InvS st -> InvS (fst (run st ops)).
Proof.
  induction ops as [|o ops IH]; intros st HI; [exact HI|].
  rewrite run_cons. cbn [fst]. apply IH, invS_step, HI.
Qed.

Lemma Nseq_app a n m : Nseq a (n + m) = Nseq a n ++ Nseq (a + N.of_nat n) m.
Proof.
  revert a. induction n as [|n IH]; intro a; cbn [Nseq Nat.add app].
  - f_equal. lia.
  - f_equal. rewrite IH. f_equal. f_equal. lia.
Qed.

Lemma Nseq_In a n x : In x (Nseq a n) <-> a <= x < a + N.of_nat n.
Proof.
  revert a. induction n as [|n IH]; intro a; cbn [Nseq In]; [|rewrite IH]; lia.
Qed.

Lemma Nseq_NoDup a n : NoDup (Nseq a n).
Proof.
  revert a. induction n as [|n IH]; intro a; cbn [Nseq]; constructor; [|apply IH].
  rewrite Nseq_In. lia.
Qed.

Lemma accepted_cons p o ops r rs :
  accepted p (o :: ops) (r :: rs) = accepted p [o] [r] ++ accepted p ops rs.
Proof.
  destruct o as [now q seq h ts|cutoff], r as [[]|]; cbn [accepted]; try reflexivity.
  destruct (q =? p); reflexivity.
Qed.

Lemma accepted_length p ops : forall rs, (length (accepted p ops rs) <= length ops)%nat.
Proof.
  induction ops as [|o ops IH]; intro rs; [cbn; lia|].
  destruct rs as [|r rs]; [destruct o; cbn; lia|]. specialize (IH rs).
  destruct o as [now q seq h ts|cutoff], r as [[]|]; cbn [accepted length]; try lia.
  destruct (q =? p); cbn [length]; lia.
Qed.

(* What one operation does to peer p's counter: it stays, or a submission of p's numbered
   last + 1 is accepted and it becomes last + 1. *)
Lemma step_counts st o p :
  let a := accepted p [o] [snd (step st o)] in
  pc_last (fst (step st o) p) = pc_last (st p) + N.of_nat (length a) /\
  a = Nseq (pc_last (st p) + 1) (length a).
Proof.
  destruct o as [now q seq h ts|cutoff]; cbn [step fst snd accepted].
  - destruct (validate now (st q) seq h ts) eqn:EV; try (cbn; split; [lia|reflexivity]).
    destruct (N.eqb_spec q p) as [->|Hne].
    + apply validate_valid_next in EV as ->.
      rewrite upd_same. cbn. split; [lia|reflexivity].
    + rewrite upd_other by congruence. cbn. split; [lia|reflexivity].
  - cbn. split; [lia|reflexivity].
Qed.

(* The same over a run: the counter counts the acceptances, and the accepted numbers of a peer
   are last + 1, last + 2, ... in this order. *)
Theorem run_counts ops : forall st p,
  let a := accepted p ops (snd (run st ops)) in
  pc_last (fst (run st ops) p) = pc_last (st p) + N.of_nat (length a) /\
  a = Nseq (pc_last (st p) + 1) (length a).
Proof.
  induction ops as [|o ops IH]; intros st p; cbn zeta.
  - cbn. split; [lia|reflexivity].
  - rewrite run_cons. cbn [fst snd]. rewrite accepted_cons, app_length, Nseq_app.
    destruct (step_counts st o p) as [Hl1 Ha1].
    destruct (IH (fst (step st o)) p) as [Hl2 Ha2].
    split; [lia|]. f_equal; [exact Ha1|].
    etransitivity; [exact Ha2|]. f_equal. lia.
Qed.

(* A step touches peer p's counter and verdict only through p's own entry, and not at all if the
   operation is another peer's submission. *)
Lemma step_for_peer st st' o p : st p = st' p -> for_peer p o = true ->
  fst (step st o) p = fst (step st' o) p /\ snd (step st o) = snd (step st' o).
Proof.
  intros E Hp. destruct o as [now q seq h ts|cutoff]; cbn [step fst snd for_peer] in *.
  - apply N.eqb_eq in Hp. subst q. rewrite <- E. split; [|reflexivity].
    destruct (validate now (st p) seq h ts); try exact E. rewrite !upd_same. reflexivity.
  - rewrite E. split; reflexivity.
Qed.

Lemma step_other_peer st o p : for_peer p o = false -> fst (step st o) p = st p.
Proof.
  destruct o as [now q seq h ts|cutoff]; [|discriminate]. cbn [step fst for_peer]. intro H.
  destruct (validate now (st q) seq h ts); try reflexivity.
  apply upd_other. apply N.eqb_neq in H. congruence.
Qed.

Lemma run_isolation ops : forall st st' p,
  st p = st' p ->
  let r := run st ops in
  let r' := run st' (filter (for_peer p) ops) in
  fst r p = fst r' p /\
  results_of p ops (snd r) = snd r'.
Proof.
  induction ops as [|o ops IH]; intros st st' p Heq; [cbn; auto|].
  cbn zeta. rewrite run_cons. cbn [filter fst snd results_of].
  destruct (for_peer p o) eqn:Hp.
  - rewrite run_cons. cbn [fst snd].
    destruct (step_for_peer st st' o p Heq Hp) as [H1 H2].
    destruct (IH _ _ p H1) as [H3 H4]. rewrite H2. split; [exact H3|f_equal; exact H4].
  - apply IH. rewrite step_other_peer by exact Hp. exact Heq.
Qed.

Definition HistBound (c : pc) : Prop := N.of_nat (length (pc_hist c)) <= CTR_MAX_SEQUENCE_HISTORY.

Lemma hist_bound_apply c seq h ts : HistBound c -> HistBound (apply_update c seq h ts).
Proof.
  unfold HistBound, apply_update. cbn [pc_hist]. intro H.
  destruct (CTR_MAX_SEQUENCE_HISTORY <? _) eqn:E; [|lia].
  destruct (pc_hist c); cbn [app tl length] in *; [lia|]. rewrite app_length. cbn [length]. lia.
Qed.
