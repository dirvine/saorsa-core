(* Lemmas for C09 (Model/PeerRecord.v): [parse_signable] reads back what [signable] wrote,
   one round-trip lemma per combinator, so the signed bytes are prefix-free and determine every
   covered field; a cached verdict is the verdict of every record in play with that key
   ([Sound]), whichever entry the oracle evicts, so the cached run answers as [verify]. *)
From SV Require Import Lib.Base Lib.Bytes Gen.PeerRecordConsts Model.PeerRecord.
Local Open Scope N_scope.

Lemma bytes_eqb_eq a b : bytes_eqb a b = true <-> a = b.
Proof. apply (list_eqb_eq N.eqb); [exact N.eqb_eq|intros [|? ?] [|? ?]; reflexivity]. Qed.

Lemma take_n_app (a r : bytes) w : length a = w -> take_n w (a ++ r) = Some (a, r).
Proof.
  intros <-. unfold take_n.
  rewrite app_length, (proj2 (Nat.leb_le _ _) (Nat.le_add_r _ _)), firstn_len_app, skipn_len_app. reflexivity.
Qed.

Lemma len_to_nat {A} (l : list A) : N.to_nat (len l) = length l.
Proof. apply Nat2N.id. Qed.

Lemma le_length w : forall n, length (le w n) = w.
Proof. induction w as [|k IH]; intro n; cbn [le length]; [reflexivity|rewrite IH; reflexivity]. Qed.

Lemma of_le_le w : forall n, n < 256 ^ N.of_nat w -> of_le (le w n) = n.
Proof.
  induction w as [|k IH]; intros n Hn; [apply N.lt_1_r in Hn; subst n; reflexivity|].
  rewrite Nat2N.inj_succ, N.pow_succ_r' in Hn. cbn [le of_le].
  rewrite IH by (apply N.div_lt_upper_bound; [discriminate|exact Hn]).
  rewrite N.add_comm. symmetry. apply N.div_mod. discriminate.
Qed.

Lemma dec_be_be w n r : n < 256 ^ N.of_nat w -> dec_be w (be w n ++ r) = Some (n, r).
Proof.
  intro Hn. unfold dec_be, be. rewrite take_n_app by (rewrite rev_length; apply le_length). cbn [bind].
  unfold of_be. rewrite rev_involutive, of_le_le by exact Hn. reflexivity.
Qed.

Lemma unvarint_varint fuel : forall n r,
  (0 < fuel)%nat -> n < 128 ^ N.of_nat fuel -> unvarint fuel (varint fuel n ++ r) = Some (n, r).
Proof.
  induction fuel as [|f IH]; intros n r Hf Hn; [inversion Hf|].
  cbn [varint unvarint]. destruct (N.ltb_spec n 128) as [E|E]; cbn [app].
  - rewrite (proj2 (N.ltb_lt _ _) E). reflexivity.
  - rewrite (proj2 (N.ltb_ge _ _) (N.le_add_r 128 _)). rewrite Nat2N.inj_succ, N.pow_succ_r' in Hn.
    destruct f as [|f']; [destruct (N.lt_irrefl _ (N.lt_le_trans _ _ _ Hn E))|].
    rewrite IH; [|apply Nat.lt_0_succ|apply N.div_lt_upper_bound; [discriminate|exact Hn]].
    rewrite (N.add_comm 128), N.add_sub, N.add_comm, <- N.div_mod by discriminate. reflexivity.
Qed.

Lemma unvint_vint n r : n < U64 -> unvint (vint n ++ r) = Some (n, r).
Proof. intro Hn. apply unvarint_varint; [apply Nat.lt_0_succ|apply (N.lt_trans _ _ _ Hn); reflexivity]. Qed.

Lemma dec_bytes_enc b r : shape_bytes b -> dec_bytes (enc_bytes b ++ r) = Some (b, r).
Proof.
  intro Hs. unfold dec_bytes, enc_bytes. rewrite <- app_assoc, unvint_vint by exact Hs.
  apply take_n_app. symmetry. apply len_to_nat.
Qed.

Lemma dec_opt_enc o r : shape_opt o -> dec_opt (enc_opt o ++ r) = Some (o, r).
Proof.
  destruct o as [b|]; intro Hs; cbn [enc_opt app dec_opt]; [|reflexivity].
  rewrite dec_bytes_enc by exact Hs. reflexivity.
Qed.

(* a counted sequence: varint length, then the items *)
Lemma dec_counted {A} (d : bytes -> option (A * bytes)) (e : A -> bytes) (P : A -> Prop) :
  (forall a r, P a -> d (e a ++ r) = Some (a, r)) ->
  forall l r, len l < U64 -> Forall P l ->
  (do (n, r') <- unvint ((vint (len l) ++ concat (map e l)) ++ r); dec_many d (N.to_nat n) r') = Some (l, r).
Proof.
  intros Hd l r Hl HF. rewrite <- app_assoc, unvint_vint by exact Hl. cbn [bind]. rewrite len_to_nat. clear Hl.
  induction HF as [|a l Ha _ IH]; cbn [length dec_many map concat app]; [reflexivity|].
  rewrite <- app_assoc, Hd by exact Ha. cbn [bind]. rewrite IH. reflexivity.
Qed.

Lemma dec_strs_enc l r :
  len l < U64 -> Forall shape_bytes l -> dec_strs (enc_strs l ++ r) = Some (l, r).
Proof. exact (dec_counted dec_bytes enc_bytes shape_bytes dec_bytes_enc l r). Qed.

Lemma dec_addr_enc a r :
  shape_addr a -> canon_addr a -> dec_addr (enc_addr a ++ r) = Some (a, r).
Proof.
  destruct a as [ip p|ip p fl sc]; cbn [shape_addr canon_addr enc_addr app dec_addr]; intros [Hl Hp] Hc;
    [|destruct Hc as [-> ->]]; rewrite <- app_assoc, take_n_app by exact Hl; cbn [bind];
    rewrite unvint_vint by (apply (N.lt_trans _ _ _ Hp); reflexivity); reflexivity.
Qed.

Definition good_ep (e : endpoint) : Prop := shape_ep e /\ canon_addr (ep_addr e).

Lemma dec_ep_enc e r : good_ep e -> dec_ep (enc_ep e ++ r) = Some (e, r).
Proof.
  intros [(H1 & H2 & H3 & H4 & H5 & H6 & H7 & H8) Hc]. unfold dec_ep, enc_ep.
  rewrite <- !app_assoc.
  rewrite dec_bytes_enc by exact H1. cbn [bind].
  rewrite dec_addr_enc by assumption. cbn [bind].
  rewrite dec_opt_enc by exact H3. cbn [bind].
  rewrite unvint_vint by exact H4. cbn [bind].
  rewrite dec_strs_enc by assumption. cbn [bind].
  rewrite dec_opt_enc by exact H7. cbn [bind].
  rewrite unvint_vint by exact H8. destruct e; reflexivity.
Qed.

Lemma dec_eps_enc l r :
  len l < U64 -> Forall good_ep l -> dec_eps (enc_eps l ++ r) = Some (l, r).
Proof. exact (dec_counted dec_ep enc_ep good_ep dec_ep_enc l r). Qed.

Lemma good_eps r pkw : shape_rec pkw r -> canon_rec r -> Forall good_ep (r_eps r).
Proof.
  intros (_ & _ & _ & _ & _ & HF & _) Hc. unfold canon_rec in Hc.
  rewrite Forall_forall in *. intros e He. split; [apply HF|apply Hc]; exact He.
Qed.

Lemma name_empty_false r : name_empty r = false -> r_name r <> Some [].
Proof. unfold name_empty. destruct (r_name r) as [[|]|]; congruence. Qed.

Lemma parse_signable_ok pkw r rest :
  shape_rec pkw r -> canon_rec r -> name_empty r = false ->
  parse_signable pkw (signable r ++ rest) = Some (fields_of r, rest).
Proof.
  intros Hs Hc Hn. pose proof (good_eps r pkw Hs Hc) as Hg.
  destruct Hs as (Hu & Hp & Hseq & Hname & Hle & _ & Hel & Hts & Httl).
  apply name_empty_false in Hn. unfold signable, parse_signable, fields_of.
  (* an absent name is written like an empty one; the empty one is excluded *)
  set (nm := match r_name r with Some nm => nm | None => [] end).
  assert (En : enc_name (r_name r) = be 4 (len nm) ++ nm)
    by (subst nm; destruct (r_name r); [reflexivity|symmetry; apply app_nil_r]).
  assert (Hnm : len nm < U32) by (subst nm; destruct (r_name r); [exact Hname|reflexivity]).
  assert (Enm : (if len nm =? 0 then None else Some nm) = r_name r)
    by (subst nm; destruct (r_name r) as [[|x t]|]; [contradiction|reflexivity..]).
  rewrite En. cbn [app]. rewrite <- !app_assoc.
  rewrite take_n_app by exact Hu. cbn [bind].
  rewrite take_n_app by exact Hp. cbn [bind].
  rewrite dec_be_be by exact Hseq. cbn [bind].
  rewrite dec_be_be by exact Hnm. cbn [bind].
  rewrite take_n_app by (symmetry; apply len_to_nat). cbn [bind].
  rewrite dec_be_be by exact Hel. cbn [bind].
  rewrite take_n_app by (symmetry; apply len_to_nat). cbn [bind].
  rewrite <- (app_nil_r (enc_eps (r_eps r))), dec_eps_enc by assumption. cbn [bind].
  rewrite dec_be_be by exact Hts. cbn [bind].
  rewrite dec_be_be by exact Httl. cbn [bind]. rewrite Enm. reflexivity.
Qed.

Lemma signable_opt_some r m : signable_opt r = Some m -> name_empty r = false /\ m = signable r.
Proof. unfold signable_opt. destruct (name_empty r); intros [= <-]. auto. Qed.

(* no signed message is a proper prefix of another, and equal ones cover equal fields *)
Lemma signable_prefix_free pkw r1 r2 t1 t2 :
  shape_rec pkw r1 -> shape_rec pkw r2 -> canon_rec r1 -> canon_rec r2 ->
  name_empty r1 = false -> name_empty r2 = false ->
  signable r1 ++ t1 = signable r2 ++ t2 -> fields_of r1 = fields_of r2 /\ t1 = t2.
Proof.
  intros S1 S2 C1 C2 N1 N2 E.
  pose proof (parse_signable_ok pkw r1 t1 S1 C1 N1) as P1.
  pose proof (parse_signable_ok pkw r2 t2 S2 C2 N2) as P2.
  rewrite E in P1. split; congruence.
Qed.

Lemma signable_injective pkw r1 r2 m :
  shape_rec pkw r1 -> shape_rec pkw r2 -> canon_rec r1 -> canon_rec r2 ->
  signable_opt r1 = Some m -> signable_opt r2 = Some m ->
  fields_of r1 = fields_of r2.
Proof.
  intros S1 S2 C1 C2 E1 E2. apply signable_opt_some in E1, E2. destruct E1 as [N1 ->], E2 as [N2 E].
  apply (signable_prefix_free pkw r1 r2 [] [] S1 S2 C1 C2 N1 N2). rewrite !app_nil_r. exact E.
Qed.

(* the two classes left out above really are not injective *)
Lemma enc_addr_scope_blind ip p f s f' s' : enc_addr (V6 ip p f s) = enc_addr (V6 ip p f' s').
Proof. reflexivity. Qed.

Lemma enc_name_empty_ambiguous : enc_name (Some []) = enc_name None.
Proof. reflexivity. Qed.

Section Verify.
  Variable H : bytes -> bytes.
  Variable vs : bytes -> bytes -> bytes -> bool.

  Lemma verify_iff r :
    verify H vs r = true <->
    name_empty r = false /\ r_uid r = H (r_pk r) /\ vs (r_pk r) (signable r) (r_sig r) = true.
  Proof.
    unfold verify, signable_opt. destruct (name_empty r); [split; [discriminate|intros [[=] _]]|].
    rewrite andb_true_iff, bytes_eqb_eq. tauto.
  Qed.

  (* the verdict is a function of the bytes that make up the cache key: the
     signature has a fixed width, and so have the id and the key at the head of
     the signed bytes *)
  Lemma verify_det_by_key pkw sigw r1 r2 :
    widths pkw sigw r1 -> widths pkw sigw r2 ->
    key_bytes r1 = key_bytes r2 -> verify H vs r1 = verify H vs r2.
  Proof.
    intros (U1 & P1 & S1) (U2 & P2 & S2) E. unfold key_bytes in E.
    apply app_inj_len_r in E; [|congruence]. destruct E as [Em Es].
    unfold verify. rewrite Es. unfold signable_opt in *.
    destruct (name_empty r1), (name_empty r2); try reflexivity; try discriminate.
    rewrite Em. unfold signable in Em. injection Em as _ Em.
    apply app_inj_len in Em; [|congruence]. destruct Em as [-> Em].
    apply app_inj_len in Em; [|congruence]. destruct Em as [-> _]. reflexivity.
  Qed.
End Verify.

Section CacheProofs.
  Context {A : Type} (keyf : A -> bytes) (ver : A -> bool).

  Lemma lookup_in k c b : lookup k c = Some b -> In (k, b) c.
  Proof.
    induction c as [|[k' b'] c IH]; cbn [lookup]; [discriminate|].
    destruct (bytes_eqb k k') eqn:E; [|right; auto].
    apply bytes_eqb_eq in E. intros [= <-]. left. congruence.
  Qed.

  Lemma remove_nth_incl n : forall c x, In x (remove_nth n c) -> In x c.
  Proof. induction n as [|n IH]; intros [|y c] x; cbn [remove_nth]; [auto|right; auto|auto|intros [->|]; cbn; auto]. Qed.

  Lemma evict_incl cap v c x : In x (evict cap v c) -> In x c.
  Proof. unfold evict. destruct (cap <=? length c)%nat; [apply remove_nth_incl|auto]. Qed.

  Lemma remove_nth_length n : forall c, (n < length c)%nat -> length (remove_nth n c) = (length c - 1)%nat.
  Proof.
    induction n as [|n IH]; intros [|y c] Hn; cbn [remove_nth length] in *; try lia.
    rewrite IH by lia. lia.
  Qed.

  (* every stored verdict is the right verdict for every item (of the universe
     U in play) that maps to its key *)
  Definition Sound (U : A -> Prop) (c : cache) : Prop :=
    forall k b, In (k, b) c -> forall a, U a -> keyf a = k -> ver a = b.

  Lemma step_sound (U : A -> Prop) cap v c a :
    (forall x y, U x -> U y -> keyf x = keyf y -> ver x = ver y) ->
    U a -> Sound U c ->
    Sound U (fst (step keyf ver cap v c a)) /\ snd (step keyf ver cap v c a) = ver a.
  Proof.
    intros Hk Ha Hs. unfold step. destruct (lookup (keyf a) c) as [b|] eqn:E; cbn [fst snd].
    - split; [exact Hs|]. apply lookup_in in E. symmetry. exact (Hs _ _ E a Ha eq_refl).
    - split; [|reflexivity]. intros k b [[= <- <-]|X] x Hx Hkx; [auto|].
      apply evict_incl in X. exact (Hs _ _ X x Hx Hkx).
  Qed.

  Lemma run_transparent (U : A -> Prop) cap ev :
    (forall x y, U x -> U y -> keyf x = keyf y -> ver x = ver y) ->
    forall l i c, Forall U l -> Sound U c -> run keyf ver cap ev i c l = map ver l.
  Proof.
    intros Hk l. induction l as [|a l IH]; intros i c HF Hs; cbn [run map]; [reflexivity|].
    inv HF. destruct (step_sound U cap (ev i c) c a Hk) as [Hs' Hb]; [assumption..|].
    destruct (step keyf ver cap (ev i c) c a) as [c' b]. cbn [fst snd] in *.
    subst b. f_equal. apply IH; assumption.
  Qed.

  (* the map never holds more than max(cap,1) entries: with [cap = 0] an empty map has nothing
     to evict, and the insert leaves one entry *)
  Lemma step_size cap v c a :
    (length c <= Nat.max cap 1)%nat -> (length (fst (step keyf ver cap v c a)) <= Nat.max cap 1)%nat.
  Proof.
    intro Hc. unfold step. destruct (lookup (keyf a) c); cbn [fst]; [exact Hc|].
    cbn [length]. unfold evict. destruct (Nat.leb_spec cap (length c)); [|lia].
    destruct c as [|x c]; [destruct (v mod _)%nat; cbn; lia|].
    rewrite remove_nth_length by (apply Nat.mod_upper_bound; discriminate). cbn [length] in *. lia.
  Qed.

  Lemma final_size cap ev : forall l i c,
    (length c <= Nat.max cap 1)%nat -> (length (final keyf ver cap ev i c l) <= Nat.max cap 1)%nat.
  Proof.
    induction l as [|a l IH]; intros i c Hc; cbn [final]; [exact Hc|].
    apply IH, step_size, Hc.
  Qed.
End CacheProofs.

Lemma validate_len_iff name neps ttl :
  validate_len name neps ttl = true <->
  (match name with Some l => 1 <= l <= 255 | None => True end) /\
  1 <= neps <= 16 /\ 1 <= ttl <= 86400.
Proof.
  unfold validate_len, PR_MAX_NAME_BYTES, PR_MAX_ENDPOINTS, PR_MAX_TTL_SECONDS. destruct name as [l|]; lia.
Qed.
