(* C17, the "favours heavier candidates" clause: real-analysis lemma for the
   Efraimidis-Spirakis key u^(1/w) and the swap-dominance (coupling) theorem for [topk],
   the selection function used by Model/Placement.v, instantiated with real keys.  The
   theorem needs tie-freeness only for the two exchanged candidates in the exchanged run;
   the original run may contain any ties.
   Uses Coq's classical real numbers (axioms listed in runner/props/c17.py). *)
From Coq Require Import Reals Lra Permutation.
From SV Require Import Lib.Base Model.Placement Proofs.Placement.

Lemma filter_length_mono {A} (P Q : A -> bool) l :
  (forall e, In e l -> P e = true -> Q e = true) -> (length (filter P l) <= length (filter Q l))%nat.
Proof.
  induction l as [|e l IH]; intros H; [cbn; lia|]. rewrite !filter_length_cons.
  specialize (IH (fun e' He' => H e' (or_intror He'))). specialize (H e (or_introl eq_refl)).
  destruct (P e); [rewrite H by reflexivity|destruct (Q e)]; lia.
Qed.

Lemma in_perm2 {A} (x y : A) l : In x l -> In y l -> x <> y -> exists o, Permutation l (x :: y :: o).
Proof.
  intros Hx Hy Hxy. destruct (Add_inv _ _ Hx) as [l' Hl']. apply Permutation_Add in Hl'.
  apply (Permutation_in _ (Permutation_sym Hl')) in Hy. destruct Hy as [Hy|Hy]; [contradiction|].
  destruct (Add_inv _ _ Hy) as [o Ho]. apply Permutation_Add in Ho.
  exists o. rewrite <- Hl', <- Ho. reflexivity.
Qed.

Lemma indexed_map {A B} (f : A -> B) (l : list A) :
  indexed (map f l) = map (fun p => (fst p, f (snd p))) (indexed l).
Proof.
  unfold indexed. rewrite map_length. generalize 0%nat.
  induction l as [|x l IH]; intros s0; [reflexivity|]. cbn. f_equal. apply IH.
Qed.

(* two entries with different ids, taken out of the indexed list *)
Lemma indexed_split2 {A I} (id : A -> I) l i j x y :
  NoDup (map id l) -> nth_error l i = Some x -> nth_error l j = Some y -> id x <> id y ->
  exists o, Permutation (indexed l) ((i, x) :: (j, y) :: o) /\
            forall q, In q o -> id (snd q) <> id x /\ id (snd q) <> id y.
Proof.
  intros Hnd Hi Hj Hxy.
  destruct (in_perm2 (i, x) (j, y) (indexed l)) as [o Ho];
    [apply in_indexed; exact Hi|apply in_indexed; exact Hj|intros [= _ E]; exact (Hxy (f_equal id E))|].
  exists o. split; [exact Ho|].
  rewrite <- (map_snd_indexed id), Ho in Hnd. cbn [map snd] in Hnd.
  apply NoDup_cons_iff in Hnd as [Nx Hnd]. apply NoDup_cons_iff in Hnd as [Ny _].
  intros q Hq. split; intros E; [apply Nx; right|apply Ny]; apply in_map_iff; exists q; auto.
Qed.

Local Open Scope R_scope.

Definition Rgtb (x y : R) : bool := if Rlt_dec y x then true else false.
Lemma Rgtb_true x y : Rgtb x y = true <-> y < x.
Proof. unfold Rgtb. destruct (Rlt_dec y x); split; intros; try lra; discriminate. Qed.
Lemma Rgtb_false x y : Rgtb x y = false <-> x <= y.
Proof. unfold Rgtb. destruct (Rlt_dec y x); split; intros; try lra; try discriminate; reflexivity. Qed.
Lemma Rgtb_irrefl x : Rgtb x x = false. Proof. apply Rgtb_false; lra. Qed.
Lemma Rgtb_trans x y z : Rgtb x y = true -> Rgtb y z = true -> Rgtb x z = true.
Proof. rewrite !Rgtb_true. lra. Qed.
Lemma Rgtb_negtrans x y z : Rgtb x y = false -> Rgtb y z = false -> Rgtb x z = false.
Proof. rewrite !Rgtb_false. lra. Qed.

Section RealRank.
  Context {A : Type} (key : A -> R).

  Lemma bef_ge q p : bef Rgtb key q p = true -> key (snd p) <= key (snd q).
  Proof.
    unfold bef. intros H. apply orb_true_iff in H as [H|H].
    - apply Rgtb_true in H. lra.
    - apply andb_true_iff in H as [H _]. apply negb_true_iff, Rgtb_false in H. exact H.
  Qed.
  Lemma bef_gt q p : key (snd p) < key (snd q) -> bef Rgtb key q p = true.
  Proof. intros H. unfold bef. apply orb_true_iff. left. apply Rgtb_true. exact H. Qed.
  Lemma bef_lt_false q p : key (snd q) < key (snd p) -> bef Rgtb key q p = false.
  Proof. intros H. destruct (bef Rgtb key q p) eqn:E; [apply bef_ge in E; lra|reflexivity]. Qed.

  (* what ranks before x ranks before y, when every key of [o] at or above x's is above y's *)
  Lemma rank_le x y o :
    (forall q, In q o -> key (snd x) <= key (snd q) -> key (snd y) < key (snd q)) ->
    (length (filter (fun q => bef Rgtb key q x) o) <= length (filter (fun q => bef Rgtb key q y) o))%nat.
  Proof. intros H. apply filter_length_mono. intros q Hq Hb. apply bef_gt, (H q Hq), bef_ge, Hb. Qed.

  (* Two runs that differ in two entries: a, b in the first, a', b' in the second, the others [o]
     in both; b <= a' and b' <= a in key, and a', b' tie with nothing.  If b is among the first
     k of the first run and a is not, then a' is among the first k of the second and b' is not.
     (Each count is over the entries other than the one it ranks.) *)
  Lemma swap_ranks a b a' b' o k :
    key (snd b) <= key (snd a') -> key (snd b') <= key (snd a) ->
    (forall q, In q (b' :: o) -> key (snd q) <> key (snd a')) ->
    (forall q, In q o -> key (snd q) <> key (snd b')) ->
    (length (filter (fun q => bef Rgtb key q b) (a :: o)) < k)%nat ->
    ~ (length (filter (fun q => bef Rgtb key q a) (b :: o)) < k)%nat ->
    (length (filter (fun q => bef Rgtb key q a') (b' :: o)) < k)%nat /\
    ~ (length (filter (fun q => bef Rgtb key q b') (a' :: o)) < k)%nat.
  Proof.
    intros M1 M2 Ta Tb. rewrite !filter_length_cons. intros Hb Ha.
    (* b does not rank after a with a strictly smaller key *)
    assert (Hle : key (snd a) <= key (snd b)).
    { apply Rnot_lt_le. intros H. rewrite (bef_lt_false b a H) in Ha. rewrite (bef_gt a b H) in Hb.
      apply Ha. eapply Nat.le_lt_trans; [apply (rank_le a b o)|lia]. intros q _ Hq. lra. }
    (* so b' <= a <= b <= a', and b' < a' *)
    pose proof (Ta b' (or_introl eq_refl)).
    rewrite (bef_lt_false b' a'), (bef_gt a' b') by lra.
    pose proof (rank_le a' b o) as Ha'. pose proof (rank_le a b' o) as Hb'.
    lapply Ha'; [|intros q Hq; specialize (Ta q (or_intror Hq)); lra].
    lapply Hb'; [|intros q Hq; specialize (Tb q Hq); lra].
    destruct (bef Rgtb key b a); lia.
  Qed.
End RealRank.

(* the sampling key  u^(1/w) *)
Definition rkey (u w : R) : R := Rpower u (/ w).

Lemma rkey_monotone u w1 w2 : 0 < u < 1 -> 0 < w1 <= w2 -> rkey u w1 <= rkey u w2.
Proof.
  intros [Hu0 Hu1] [Hw1 Hw12]. unfold rkey, Rpower.
  assert (Hln : ln u < 0) by (rewrite <- ln_1; apply ln_increasing; lra).
  assert (Hinv : / w2 <= / w1) by (apply Rinv_le_contravar; lra).
  assert (Hle : / w1 * ln u <= / w2 * ln u) by nra.
  destruct Hle as [Hlt|Heq]; [left; apply exp_increasing; exact Hlt|right; rewrite Heq; reflexivity].
Qed.

Definition entry := (N * (R * R))%type.         (* id, (weight, draw) *)
Definition e_id (e : entry) : N := fst e.
Definition e_w (e : entry) : R := fst (snd e).
Definition e_u (e : entry) : R := snd (snd e).
Definition e_key (e : entry) : R := rkey (e_u e) (e_w e).

(* WeightedSampler::sample_nodes over the reals: same [topk], keys u^(1/w) *)
Definition rsample (es : list entry) (k : nat) : list N := topk Rgtb (map e_key es) (map e_id es) k.

(* candidate a receives b's draw and b receives a's *)
Definition swap_draws (a b : N) (ua ub : R) (es : list entry) : list entry :=
  map (fun e => if (e_id e =? a)%N then (e_id e, (e_w e, ub))
                else if (e_id e =? b)%N then (e_id e, (e_w e, ua)) else e) es.

(* what [swap_draws] does to one entry *)
Definition swap1 (a b : N) (ua ub : R) (e : entry) : entry :=
  if (e_id e =? a)%N then (e_id e, (e_w e, ub)) else if (e_id e =? b)%N then (e_id e, (e_w e, ua)) else e.
Lemma swap_draws_map a b ua ub es : swap_draws a b ua ub es = map (swap1 a b ua ub) es.
Proof. reflexivity. Qed.

Definition not_id (a : N) (e : entry) : bool := negb (e_id e =? a)%N.
Definition others (a b : N) (l : list entry) : list entry := filter (not_id b) (filter (not_id a) l).

Lemma others_in a b l e : In e (others a b l) -> In e l /\ e_id e <> a /\ e_id e <> b.
Proof.
  unfold others. intros H. apply filter_In in H as [H Hb]. apply filter_In in H as [H Ha].
  unfold not_id in *. apply negb_true_iff, N.eqb_neq in Ha, Hb. auto.
Qed.

Lemma rsample_rank_rest es k i e rest :
  NoDup (map e_id es) -> Permutation (indexed es) ((i, e) :: rest) ->
  (In (e_id e) (rsample es k) <-> (length (filter (fun q => bef Rgtb e_key q (i, e)) rest) < k)%nat).
Proof. exact (topk_rank_rest Rgtb e_key e_id Rgtb_irrefl Rgtb_trans Rgtb_negtrans es k i e rest). Qed.

Lemma swap1_a a b ua ub w u : swap1 a b ua ub (a, (w, u)) = (a, (w, ub)).
Proof. unfold swap1. cbn. rewrite N.eqb_refl. reflexivity. Qed.
Lemma swap1_b a b ua ub w u : a <> b -> swap1 a b ua ub (b, (w, u)) = (b, (w, ua)).
Proof. intros H. unfold swap1. cbn. apply not_eq_sym, N.eqb_neq in H. rewrite H, N.eqb_refl. reflexivity. Qed.
Lemma swap1_other a b ua ub e : e_id e <> a -> e_id e <> b -> swap1 a b ua ub e = e.
Proof. intros Ha Hb. unfold swap1. apply N.eqb_neq in Ha, Hb. rewrite Ha, Hb. reflexivity. Qed.
Lemma swap1_id a b ua ub e : e_id (swap1 a b ua ub e) = e_id e.
Proof. unfold swap1. destruct (e_id e =? a)%N; [reflexivity|]. destruct (e_id e =? b)%N; reflexivity. Qed.

Theorem swap_dominance_ties es k a b wa wb ua ub :
  NoDup (map e_id es) ->
  In (a, (wa, ua)) es -> In (b, (wb, ub)) es -> a <> b ->
  0 < wb <= wa -> 0 < ua < 1 -> 0 < ub < 1 ->
  let es' := swap_draws a b ua ub es in
  (forall e, In e es' -> e_id e <> a -> e_key e <> rkey ub wa) ->
  (forall e, In e es' -> e_id e <> b -> e_key e <> rkey ua wb) ->
  In b (rsample es k) -> ~ In a (rsample es k) ->
  In a (rsample es' k) /\ ~ In b (rsample es' k).
Proof.
  intros Hnd Ha Hb Hab Hw Hua Hub es' Ta Tb. subst es'. rewrite swap_draws_map in *.
  set (f := swap1 a b ua ub).
  destruct (In_nth_error _ _ Ha) as [ia Hia]. destruct (In_nth_error _ _ Hb) as [ib Hib].
  (* up to order, both runs are the two exchanged entries followed by the same others *)
  destruct (indexed_split2 e_id es ia ib _ _ Hnd Hia Hib Hab) as (o & Ho & Hoid).
  pose (l' := (ia, (a, (wa, ub))) :: (ib, (b, (wb, ua))) :: o).
  assert (Ho' : Permutation (indexed (map f es)) l').
  { rewrite indexed_map, Ho. cbn [map fst snd]. unfold f. rewrite swap1_a, (swap1_b _ _ _ _ _ _ Hab).
    do 2 apply perm_skip. rewrite (map_ext_in _ (fun q => q)), map_id; [reflexivity|].
    intros [j e] Hq. destruct (Hoid _ Hq). cbn [fst snd]. rewrite swap1_other; auto. }
  assert (Hnd' : NoDup (map e_id (map f es)))
    by (rewrite map_map, (map_ext _ _ (swap1_id a b ua ub)); exact Hnd).
  assert (Hin' : forall q, In q l' -> In (snd q) (map f es))
    by (intros [j e] Hq; exact (in_combine_r _ _ _ _ (Permutation_in _ (Permutation_sym Ho') Hq))).
  rewrite (rsample_rank_rest _ k _ _ _ Hnd (perm_trans Ho (perm_swap _ _ _)) : In b _ <-> _),
          (rsample_rank_rest _ k _ _ _ Hnd Ho : In a _ <-> _),
          (rsample_rank_rest _ k _ _ _ Hnd' Ho' : In a _ <-> _),
          (rsample_rank_rest _ k _ _ _ Hnd' (perm_trans Ho' (perm_swap _ _ _)) : In b _ <-> _).
  apply swap_ranks.
  - exact (rkey_monotone ub wb wa Hub Hw).
  - exact (rkey_monotone ua wb wa Hua Hw).
  - intros q Hq. apply (Ta _ (Hin' q (or_intror Hq))).
    destruct Hq as [<-|Hq]; [exact (not_eq_sym Hab)|exact (proj1 (Hoid q Hq))].
  - intros q Hq. exact (Tb _ (Hin' q (or_intror (or_intror Hq))) (proj2 (Hoid q Hq))).
Qed.

(* the strict case: no ties at all in the exchanged run *)
Theorem swap_dominance es k a b wa wb ua ub :
  NoDup (map e_id es) ->
  In (a, (wa, ua)) es -> In (b, (wb, ub)) es -> a <> b ->
  0 < wb <= wa -> 0 < ua < 1 -> 0 < ub < 1 ->
  let es' := swap_draws a b ua ub es in
  NoDup (map e_key es) -> NoDup (map e_key es') ->
  In b (rsample es k) -> ~ In a (rsample es k) ->
  In a (rsample es' k) /\ ~ In b (rsample es' k).
Proof.
  intros Hnd Ha Hb Hab Hw Hua Hub es' _ Hk'.
  assert (Es : es' = map (swap1 a b ua ub) es) by apply swap_draws_map.
  assert (Ha' : In (a, (wa, ub)) es') by (rewrite Es, <- (swap1_a a b ua ub wa ua); exact (in_map _ es _ Ha)).
  assert (Hb' : In (b, (wb, ua)) es') by (rewrite Es, <- (swap1_b a b ua ub wb ub Hab); exact (in_map _ es _ Hb)).
  apply (swap_dominance_ties es k a b wa wb ua ub Hnd Ha Hb Hab Hw Hua Hub); fold es'.
  - intros e He Hea E. exact (Hea (f_equal e_id (NoDup_map_inj e_key es' _ _ Hk' He Ha' E))).
  - intros e He Heb E. exact (Heb (f_equal e_id (NoDup_map_inj e_key es' _ _ Hk' He Hb' E))).
Qed.
