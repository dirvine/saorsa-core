(* Proofs about Model/Store.v (C03): put / get / remote PUT over per-node stores.
   put: both size tests are one test ([core_store_eq]), so put is the lookup followed by a fan-out
   whose exact effect is [replicate_spec]; [put_done] is the statement the theorems use.
   get: one invariant of the walk, [GInv], carried through [gconsider], [gprocess] and [gloop]
   ([gloop_inv]); [get_spec] hands its postcondition [GPost] to the theorems.
   histories: [run_from_AllP]. *)
From SV Require Import Lib.Base Lib.ListAux Gen.LookupConsts Model.Lookup Model.Store Proofs.Lookup.
Local Open Scope N_scope.

Lemma sget_sput s k v k' : sget (sput s k v) k' = if k =? k' then Some v else sget s k'.
Proof. reflexivity. Qed.

Lemma node_store_set ss p s q :
  node_store (set_store ss p s) q = if p =? q then s else node_store ss q.
Proof. reflexivity. Qed.

Lemma held_set_same ss p s k : held (set_store ss p s) p k = sget s k.
Proof. unfold held. rewrite node_store_set, N.eqb_refl. reflexivity. Qed.

Lemma held_set_other ss p s q k : q <> p -> held (set_store ss p s) q k = held ss q k.
Proof. intro H. unfold held. rewrite node_store_set. apply not_eq_sym, N.eqb_neq in H. rewrite H. reflexivity. Qed.

Lemma sget_sput_same s k v : sget (sput s k v) k = Some v.
Proof. rewrite sget_sput, N.eqb_refl. reflexivity. Qed.

Lemma sget_sput_other s k v k' : k' <> k -> sget (sput s k v) k' = sget s k'.
Proof. intro H. rewrite sget_sput. apply not_eq_sym, N.eqb_neq in H. rewrite H. reflexivity. Qed.

Lemma held_empty p k : held [] p k = None.
Proof. reflexivity. Qed.

(* writing (k, v) into node p's store changes exactly the binding (p, k) *)
Lemma held_write ss p k v q k' :
  held (set_store ss p (sput (node_store ss p) k v)) q k' =
  if (p =? q) && (k =? k') then Some v else held ss q k'.
Proof.
  unfold held. rewrite node_store_set. destruct (p =? q) eqn:E; [|reflexivity].
  apply N.eqb_eq in E. subst q. apply sget_sput.
Qed.

(* both size tests are the same test, so the remote PUT handler is the core store *)
Lemma core_store_eq ss p k v :
  core_store ss p k v =
  if vlen v <=? MGR_MAX_VALUE_SIZE then (set_store ss p (sput (node_store ss p) k v), true) else (ss, false).
Proof.
  unfold core_store. change CORE_MAX_DHT_VALUE_SIZE with MGR_MAX_VALUE_SIZE.
  rewrite N.ltb_antisym. destruct (vlen v <=? MGR_MAX_VALUE_SIZE); reflexivity.
Qed.

Lemma handle_put_core ss p k v : handle_put ss p k v = core_store ss p k v.
Proof.
  unfold handle_put. rewrite core_store_eq, N.ltb_antisym.
  destruct (vlen v <=? MGR_MAX_VALUE_SIZE); reflexivity.
Qed.

Lemma handle_put_small ss p k v : vlen v <= MGR_MAX_VALUE_SIZE ->
  handle_put ss p k v = (set_store ss p (sput (node_store ss p) k v), true).
Proof. intro H. apply N.leb_le in H. rewrite handle_put_core, core_store_eq, H. reflexivity. Qed.

Lemma core_store_big ss p k v : MGR_MAX_VALUE_SIZE < vlen v -> core_store ss p k v = (ss, false).
Proof. intro H. apply N.leb_gt in H. rewrite core_store_eq, H. reflexivity. Qed.

Lemma core_store_held ss p k v q k' :
  held (fst (core_store ss p k v)) q k' =
  if (vlen v <=? MGR_MAX_VALUE_SIZE) && ((p =? q) && (k =? k')) then Some v else held ss q k'.
Proof.
  rewrite core_store_eq. destruct (vlen v <=? MGR_MAX_VALUE_SIZE); [apply held_write|reflexivity].
Qed.

(* every binding of every node satisfies P *)
Definition AllP (P : N -> value -> Prop) (ss : stores) : Prop :=
  forall p k v, held ss p k = Some v -> P k v.

Definition AllSmall (ss : stores) : Prop :=
  forall p k v, held ss p k = Some v -> vlen v <= MGR_MAX_VALUE_SIZE.

Lemma AllSmall_AllP ss : AllSmall ss <-> AllP (fun _ v => vlen v <= MGR_MAX_VALUE_SIZE) ss.
Proof. reflexivity. Qed.

Lemma AllP_empty (P : N -> value -> Prop) : AllP P [].
Proof. intros p k v H. discriminate. Qed.

Lemma write_AllP (P : N -> value -> Prop) ss p k v :
  P k v -> AllP P ss -> AllP P (set_store ss p (sput (node_store ss p) k v)).
Proof.
  intros HP HA q k' w. rewrite held_write. destruct (p =? q); [|apply HA].
  destruct (k =? k') eqn:E; [|apply HA]. apply N.eqb_eq in E. subst k'. intro H. inv H. exact HP.
Qed.

Lemma core_store_AllP (P : N -> value -> Prop) ss p k v :
  (vlen v <= MGR_MAX_VALUE_SIZE -> P k v) -> AllP P ss -> AllP P (fst (core_store ss p k v)).
Proof.
  intros HP HA. rewrite core_store_eq.
  destruct (N.leb_spec (vlen v) MGR_MAX_VALUE_SIZE); [apply write_AllP|]; auto.
Qed.

Definition has_true (q : pid) (outs : list (pid * bool)) : bool :=
  existsb (fun o => (fst o =? q) && snd o) outs.

Lemma has_true_In q outs : has_true q outs = true <-> In (q, true) outs.
Proof.
  unfold has_true. rewrite existsb_exists. split.
  - intros [[p b] [Hin Hb]]. cbn [fst snd] in Hb. apply andb_true_iff in Hb. destruct Hb as [Hp ->].
    apply N.eqb_eq in Hp. subst. exact Hin.
  - intro Hin. exists (q, true). split; [exact Hin|]. cbn [fst snd]. rewrite N.eqb_refl. reflexivity.
Qed.

Section PutProofs.
  Variable keyof : pid -> N.
  Variable reply : pid -> option (list pid).
  Variable responsive : pid -> bool.
  Variable self : pid.
  Variable selfs_marked selfs_all : list pid.
  Variable repl : nat.

  Local Notation replicate := (Model.Store.replicate responsive).
  Local Notation put := (Model.Store.put keyof reply responsive self selfs_marked selfs_all repl).
  Local Notation lookup := (Model.Lookup.lookup keyof reply self selfs_marked selfs_all).

  Lemma replicate_cons ss p ts k v :
    replicate ss (p :: ts) k v =
    let ok := responsive p && (vlen v <=? MGR_MAX_VALUE_SIZE) in
    let r := replicate (if ok then set_store ss p (sput (node_store ss p) k v) else ss) ts k v in
    (fst r, (p, ok) :: snd r).
  Proof.
    cbn [Model.Store.replicate]. rewrite handle_put_core, core_store_eq.
    destruct (responsive p), (vlen v <=? MGR_MAX_VALUE_SIZE); cbn [andb];
      destruct (replicate _ ts k v); reflexivity.
  Qed.

  (* the exact effect of the PUT fan-out *)
  Lemma replicate_spec k v : forall ts ss,
    snd (replicate ss ts k v) = map (fun p => (p, responsive p && (vlen v <=? MGR_MAX_VALUE_SIZE))) ts /\
    forall q k', held (fst (replicate ss ts k v)) q k' =
                 if (k =? k') && has_true q (snd (replicate ss ts k v)) then Some v else held ss q k'.
  Proof.
    induction ts as [|p ts IH]; intro ss.
    - split; [reflexivity|]. intros q k'. cbn. rewrite andb_false_r. reflexivity.
    - rewrite replicate_cons. cbv zeta. cbn [fst snd map]. set (ok := responsive p && _).
      destruct (IH (if ok then set_store ss p (sput (node_store ss p) k v) else ss)) as [I1 I3].
      split; [rewrite I1; reflexivity|]. intros q k'. rewrite I3. unfold has_true at 2. cbn [existsb fst snd].
      fold (has_true q (snd (replicate (if ok then set_store ss p (sput (node_store ss p) k v) else ss) ts k v))).
      destruct ok; [rewrite held_write|]; destruct (k =? k'), (p =? q), (has_true q _); reflexivity.
  Qed.

  Lemma replicate_AllP (P : N -> value -> Prop) k v : (vlen v <= MGR_MAX_VALUE_SIZE -> P k v) ->
    forall ts ss, AllP P ss -> AllP P (fst (replicate ss ts k v)).
  Proof.
    intro HP. induction ts as [|p ts IH]; intros ss HA; [exact HA|]. rewrite replicate_cons. apply IH.
    destruct (N.leb_spec (vlen v) MGR_MAX_VALUE_SIZE); [|rewrite andb_false_r; exact HA].
    destruct (responsive p); [apply write_AllP|]; auto.
  Qed.

  (* after the manager's size test the local core store cannot refuse *)
  Lemma put_eq ss k v init :
    put ss k v init =
    if vlen v <=? MGR_MAX_VALUE_SIZE then
      let s := lookup k repl init in
      let r := replicate (set_store ss self (sput (node_store ss self) k v))
                         (filter (fun p => negb (mem p selfs_all)) (best s)) k v in
      (fst r, PutDone (1 + N.of_nat (length (filter (fun o => snd o) (snd r)))) (snd r), rev (sent s))
    else (ss, PutRefused, []).
  Proof.
    unfold Model.Store.put. rewrite N.ltb_antisym, core_store_eq.
    destruct (vlen v <=? MGR_MAX_VALUE_SIZE); cbn [negb]; [|reflexivity].
    cbv zeta. destruct (replicate _ _ k v). reflexivity.
  Qed.

  Lemma put_done ss k v init ss' n outs reqs : put ss k v init = (ss', PutDone n outs, reqs) ->
    let s := lookup k repl init in
    vlen v <= MGR_MAX_VALUE_SIZE /\
    map fst outs = filter (fun p => negb (mem p selfs_all)) (best s) /\
    reqs = rev (sent s) /\
    n = 1 + N.of_nat (length (filter (fun o => snd o) outs)) /\
    (forall p b, In (p, b) outs -> b = responsive p) /\
    (forall q k', held ss' q k' =
       if (k =? k') && ((self =? q) || has_true q outs) then Some v else held ss q k').
  Proof.
    rewrite put_eq. cbv zeta. destruct (vlen v <=? MGR_MAX_VALUE_SIZE) eqn:E; intro H; inv H.
    match goal with |- context [replicate ?a ?b k v] => destruct (replicate_spec k v b a) as [R1 R3] end.
    rewrite E in R1. split; [lia|]. split; [|split; [reflexivity|split; [reflexivity|split]]].
    - rewrite R1, map_map. apply map_id.
    - intros p b Hin. rewrite R1 in Hin. apply in_map_iff in Hin. destruct Hin as [x [Hx _]].
      inv Hx. apply andb_true_r.
    - intros q k'. rewrite R3, held_write.
      destruct (k =? k'), (self =? q), (has_true q _); reflexivity.
  Qed.

  Lemma put_AllP (P : N -> value -> Prop) ss k v init : (vlen v <= MGR_MAX_VALUE_SIZE -> P k v) ->
    AllP P ss -> AllP P (fst (fst (put ss k v init))).
  Proof.
    intros HP HA. rewrite put_eq. destruct (N.leb_spec (vlen v) MGR_MAX_VALUE_SIZE); [|exact HA].
    apply replicate_AllP; [exact HP|apply write_AllP; auto].
  Qed.

End PutProofs.

Definition is_fail (r : fv_reply) : bool := match r with FVFail => true | _ => false end.

Section GetProofs.
  Variable nodes_reply : pid -> fv_reply.
  Variable self : pid.
  Variable selfs_marked selfs_all : list pid.
  Variable key : N.
  Variable ss : stores.

  Local Notation fv_answer := (Model.Store.fv_answer nodes_reply key ss).
  Local Notation gconsider := (Model.Store.gconsider selfs_all).
  Local Notation gprocess := (Model.Store.gprocess nodes_reply selfs_all key ss).
  Local Notation gloop := (Model.Store.gloop nodes_reply selfs_all key).
  Local Notation get := (Model.Store.get nodes_reply self selfs_marked selfs_all key ss).

  (* a peer answers with bytes exactly when it responds at all and holds the key *)
  Lemma fv_answer_cases p :
    (exists v, fv_answer p = inl (Some v) /\ held ss p key = Some v /\ nodes_reply p <> FVFail) \/
    (fv_answer p = inr (nodes_reply p) /\ (nodes_reply p = FVFail \/ held ss p key = None)).
  Proof.
    unfold Model.Store.fv_answer.
    destruct (nodes_reply p) eqn:E; [auto|destruct (held ss p key) as [v|] eqn:H..];
      (left; exists v; repeat split; congruence) || auto.
  Qed.

  Lemma gpop_pop qd : forall c ql batch,
    gpop qd c ql batch = pop (N.to_nat GET_ALPHA) (fun x => negb (mem x qd)) c ql batch.
  Proof.
    induction c as [|x c IH]; intros ql batch; cbn [gpop pop]; [reflexivity|].
    change (existsb (N.eqb x) qd) with (mem x qd). destruct (mem x qd); cbn [negb]; rewrite IH; reflexivity.
  Qed.

  (* where a learned peer can be: as in Proofs/Lookup.v, without domination *)
  Inductive GCov (s : gst) (extra : list pid) (x : pid) : Prop :=
  | gcov_cut : g_cut s = true -> GCov s extra x
  | gcov_queried : In x (g_queried s) -> GCov s extra x
  | gcov_local : In x selfs_all -> GCov s extra x
  | gcov_queued : In x (g_cand s) -> GCov s extra x
  | gcov_extra : In x extra -> GCov s extra x.
  Local Hint Constructors GCov : core.

  Lemma GCov_drop s n extra x : GCov s extra n -> GCov s (n :: extra) x -> GCov s extra x.
  Proof. intros Hn [H|H|H|H|[<-|H]]; auto. Qed.

  (* what looking at the named ids [l] does to the state *)
  Definition GStep (s s' : gst) (l extra : list pid) : Prop :=
    g_queried s' = g_queried s /\ g_sent s' = g_sent s /\ g_failed s' = g_failed s /\
    incl (g_queued s') (g_cand s') /\
    (forall x, GCov s (l ++ extra) x -> GCov s' extra x) /\
    (InvQ selfs_all (g_cand s) (g_queued s) -> InvQ selfs_all (g_cand s') (g_queued s')).

  Lemma gconsider_step s n extra : incl (g_queued s) (g_cand s) -> GStep s (gconsider s n) [n] extra.
  Proof.
    intro HQ. unfold GStep, Model.Store.gconsider. cbn [app].
    change (existsb (N.eqb n)) with (mem n).
    destruct (mem n (g_queried s) || mem n (g_queued s) || mem n selfs_all) eqn:E.
    - do 3 (split; [reflexivity|]). split; [exact HQ|split; [|auto]].
      intro x. apply GCov_drop. rewrite !orb_true_iff, !mem_In in E.
      destruct E as [[E|E]|E]; [apply gcov_queried|apply gcov_queued, HQ|apply gcov_local]; exact E.
    - case_if; cbn [g_cand g_queried g_queued g_sent g_failed]; do 3 (split; [reflexivity|]).
      + split; [exact HQ|split; [|auto]]. intros x _. apply gcov_cut. reflexivity.
      + split; [|split].
        * intros y [<-|Hy]; apply in_or_app; [right; left; reflexivity|left; apply HQ, Hy].
        * intros x [H|H|H|H|[<-|H]]; auto;
            apply gcov_queued, in_or_app; [left; exact H|right; left; reflexivity].
        * rewrite !orb_false_iff, !mem_false in E. intro H. apply InvQ_push; tauto.
  Qed.

  Lemma fold_gconsider_step l : forall s extra, incl (g_queued s) (g_cand s) ->
    GStep s (fold_left gconsider l s) l extra.
  Proof.
    induction l as [|n l IH]; intros s extra HQ; cbn [fold_left];
      [do 3 (split; [reflexivity|]); auto|].
    destruct (gconsider_step s n (l ++ extra) HQ) as [G1 [G2 [G3 [G4 [G5 G6]]]]].
    destruct (IH _ extra G4) as [H1 [H2 [H3 [H4 [H5 H6]]]]].
    unfold GStep. rewrite H1, H2, H3. auto 8.
  Qed.

  (* the ids peer p's answer names; the state after p's answer (not a value) has been handled *)
  Definition gnamed (p : pid) : list pid := match nodes_reply p with FVNodes l => l | _ => [] end.
  Definition gafter (s : gst) (p : pid) : gst :=
    fold_left gconsider (gnamed p)
      (mkG (g_cand s) (p :: g_queried s) (g_queued s) (g_sent s)
           (g_failed s + (if is_fail (nodes_reply p) then 1 else 0)) (g_cut s)).

  (* the bytes peer p answers FIND_VALUE with *)
  Definition answer (p : pid) : option value := if is_fail (nodes_reply p) then None else held ss p key.

  Lemma answer_some p v : answer p = Some v -> held ss p key = Some v /\ nodes_reply p <> FVFail.
  Proof. unfold answer. destruct (nodes_reply p); cbn [is_fail]; intro H; split; congruence. Qed.

  Lemma gprocess_cons s p rest :
    gprocess s (p :: rest) =
    match answer p with
    | Some v => (mkG (g_cand s) (p :: g_queried s) (g_queued s) (g_sent s) (g_failed s) (g_cut s), Some (v, p))
    | None => gprocess (gafter s p) rest
    end.
  Proof.
    cbn [Model.Store.gprocess]. unfold Model.Store.fv_answer, answer, gafter, gnamed.
    destruct (nodes_reply p); cbn [is_fail fold_left]; rewrite ?N.add_0_r; destruct (held ss p key); reflexivity.
  Qed.

  (* The invariant of the get walk.  [done] are the peers whose answers have been handled (most
     recent first), [todo] the rest of the current batch: requests to them are out already.
     The last field is what distinct, non-local initial candidates add. *)
  Record GInv (init : list pid) (s : gst) (done todo : list pid) : Prop := mkGInv {
    gi_qc : incl (g_queued s) (g_cand s);
    gi_sent : g_sent s = rev todo ++ done;
    gi_queried : g_queried s = done ++ selfs_marked;
    gi_none : forall p, In p done -> answer p = None;
    gi_failed : g_failed s = N.of_nat (length (filter (fun p => is_fail (nodes_reply p)) done));
    gi_cov : forall x, In x (init ++ flat_map gnamed done) -> GCov s todo x;
    gi_wf : NoDup init -> (forall p, In p init -> ~ In p selfs_all) ->
            InvQ selfs_all (g_cand s) (g_queued s) /\
            NoDup (g_sent s) /\ forall p, In p (g_sent s) -> ~ In p selfs_all }.

  Lemma gafter_step init s done p todo : GInv init s done (p :: todo) -> answer p = None ->
    GInv init (gafter s p) (p :: done) todo.
  Proof.
    intros [I1 I2 I3 I4 I5 I6 I7] Hp. unfold gafter.
    match goal with |- GInv _ (fold_left _ _ ?s1) _ _ =>
      destruct (fold_gconsider_step (gnamed p) s1 todo I1) as [F1 [F2 [F3 [F4 [F5 F6]]]]] end.
    constructor; rewrite ?F1, ?F2, ?F3; cbn [g_queried g_sent g_failed].
    - exact F4.
    - rewrite I2. cbn [rev]. rewrite <- app_assoc. reflexivity.
    - rewrite I3. reflexivity.
    - intros q [<-|Hq]; auto.
    - rewrite I5. cbn [filter]. destruct (is_fail (nodes_reply p)); cbn [length]; lia.
    - intros x Hx. apply F5.
      assert (Hx' : In x (gnamed p) \/ In x (init ++ flat_map gnamed done))
        by (clear - Hx; cbn [flat_map] in Hx; rewrite !in_app_iff in *; tauto).
      destruct Hx' as [Hx'|Hx']; [apply gcov_extra, in_or_app; left; exact Hx'|].
      destruct (I6 x Hx') as [H|H|H|H|[<-|H]];
        [apply gcov_cut|apply gcov_queried; right|apply gcov_local|apply gcov_queued
        |apply gcov_queried; left; reflexivity|apply gcov_extra, in_or_app; right]; exact H.
    - intros Hnd Hi. destruct (I7 Hnd Hi) as [J1 J2]. split; [apply F6, J1|exact J2].
  Qed.

  Lemma gprocess_step init : forall batch s done s1 r,
    gprocess s batch = (s1, r) -> GInv init s done batch ->
    match r with
    | None => GInv init s1 (rev batch ++ done) []
    | Some (v, p) => answer p = Some v /\ In p batch /\ g_sent s1 = g_sent s
    end.
  Proof.
    induction batch as [|p0 batch IH]; intros s done s1 r H HI; [inv H; exact HI|].
    rewrite gprocess_cons in H. destruct (answer p0) as [v0|] eqn:Ea.
    - inv H. cbn [g_sent In]. auto.
    - pose proof (gafter_step _ _ _ _ _ HI Ea) as HG. pose proof (IH _ _ _ _ H HG) as HI'.
      destruct r as [[v p]|].
      + destruct HI' as [A [B C]]. rewrite C, (gi_sent _ _ _ _ HI), (gi_sent _ _ _ _ HG).
        cbn [rev In]. rewrite <- app_assoc. auto.
      + cbn [rev]. rewrite <- app_assoc. exact HI'.
  Qed.

  Definition ginit (init : list pid) : gst := mkG init selfs_marked init [] 0 false.

  Lemma ginit_inv init : GInv init (ginit init) [] [].
  Proof.
    constructor; cbn [ginit g_queued g_cand g_queried g_sent g_failed app filter length flat_map rev];
      try reflexivity.
    - apply incl_refl.
    - intros p [].
    - intros x Hx. rewrite app_nil_r in Hx. apply gcov_queued, Hx.
    - intros Hnd Hi. split; [constructor; auto using incl_refl|]. split; [constructor|intros p []].
  Qed.

  Lemma get_alpha_pos : (0 < N.to_nat GET_ALPHA)%nat.
  Proof. apply Nat.ltb_lt. reflexivity. Qed.

  (* popping a batch: the requests to all of it go out at once *)
  Lemma gpop_inv init s c' q' batch : GInv init s (g_sent s) [] ->
    gpop (g_queried s) (g_cand s) (g_queued s) [] = (c', q', batch) ->
    GInv init (mkG c' (g_queried s) q' (rev batch ++ g_sent s) (g_failed s) (g_cut s)) (g_sent s) batch /\
    (length batch <= N.to_nat GET_ALPHA)%nat /\ (batch = [] -> c' = []).
  Proof.
    intros HI Ep. rewrite gpop_pop in Ep. apply pop_spec in Ep.
    destruct Ep as [pre [E1 [E2 [E3 [E4 E5]]]]]. cbn [app length] in E3, E5.
    assert (Hk : forall x, In x batch <-> In x pre /\ ~ In x (g_queried s)).
    { intro x. rewrite E3, filter_In, negb_true_iff, mem_false. reflexivity. }
    split; [|split; [lia|]].
    - constructor; cbn [g_queued g_cand g_queried g_sent g_failed]; [|reflexivity|apply HI..| |].
      + intros y Hy. apply E2 in Hy. destruct Hy as [Hy Hn]. apply (gi_qc _ _ _ _ HI) in Hy. rewrite E1 in Hy.
        apply in_app_or in Hy. destruct Hy; [contradiction|assumption].
      + intros x Hx. destruct (gi_cov _ _ _ _ HI x Hx) as [H|H|H|H|[]]; auto.
        (* x was queued: it still is, or it was taken into the batch, or dropped as queried *)
        rewrite E1 in H. apply in_app_or in H. destruct H as [H|H]; [|apply gcov_queued, H].
        destruct (In_dec N.eq_dec x (g_queried s)) as [Hq|Hq]; [apply gcov_queried, Hq|apply gcov_extra, Hk; auto].
      + intros Hnd Hi. destruct (gi_wf _ _ _ _ HI Hnd Hi) as [HQ [S2 S3]]. rewrite E1 in HQ.
        split; [exact (InvQ_pop _ _ _ _ _ HQ E2)|]. split.
        * apply NoDup_app_iff. split; [apply NoDup_rev; rewrite E3; apply NoDup_filter, (NoDup_app_l _ _ (q_nodup _ _ _ HQ))|].
          split; [exact S2|]. intros x Hx Hs. apply in_rev, Hk in Hx. destruct Hx as [_ Hx].
          apply Hx. rewrite (gi_queried _ _ _ _ HI). apply in_or_app. left. exact Hs.
        * intros x Hx. apply in_app_or in Hx. destruct Hx as [Hx|Hx]; [|auto].
          apply in_rev, Hk in Hx. apply (q_noself _ _ _ HQ), in_or_app. tauto.
    - intros ->. destruct E4 as [E4|E4]; [exact E4|]. pose proof get_alpha_pos. cbn [length] in E4. lia.
  Qed.

  (* what a run of the get walk from a state between two rounds establishes *)
  Definition GPost (init : list pid) (s s1 : gst) (r : option (value * pid)) (fuel : nat) : Prop :=
    (length (g_sent s1) <= length (g_sent s) + fuel * N.to_nat GET_ALPHA)%nat /\
    match r with
    | None => GInv init s1 (g_sent s1) [] /\ (g_cand s1 = [] \/ g_cut s1 = true)
    | Some (v, p) =>
        answer p = Some v /\ In p (g_sent s1) /\
        (NoDup init -> (forall p, In p init -> ~ In p selfs_all) ->
         NoDup (g_sent s1) /\ forall p, In p (g_sent s1) -> ~ In p selfs_all)
    end.

  Lemma gloop_inv init : forall fuel s, GInv init s (g_sent s) [] ->
    GPost init s (fst (gloop fuel ss s)) (snd (gloop fuel ss s)) fuel.
  Proof.
    induction fuel as [|f IH]; intros s HI; cbn [Model.Store.gloop].
    - split; cbn [fst snd g_sent g_cand g_cut]; [lia|]. split.
      + constructor; [apply HI..| |apply HI]. intros x Hx.
        destruct (gi_cov _ _ _ _ HI x Hx) as [H|H|H|H|H]; auto.
        apply gcov_cut. cbn [g_cut]. rewrite H. reflexivity.
      + destruct (g_cand s); [auto|]. rewrite orb_true_r. auto.
    - destruct (g_cand s) as [|c0 cl] eqn:Ec; [split; cbn [fst snd]; [lia|auto]|]. rewrite <- Ec.
      destruct (gpop (g_queried s) (g_cand s) (g_queued s) []) as [[c' q'] batch] eqn:Ep.
      destruct (gpop_inv _ _ _ _ _ HI Ep) as [HI0 [Hl Hnil]].
      destruct batch as [|b0 bl].
      + split; cbn [fst snd g_sent g_cand rev app]; [lia|]. auto.
      + destruct (gprocess _ (b0 :: bl)) as [s2 r] eqn:Eg. pose proof (gprocess_step init _ _ _ _ _ Eg HI0) as HP.
        destruct r as [[v p]|]; cbn [fst snd]; unfold GPost.
        * destruct HP as [P1 [P3 P4]]. cbn [g_sent] in P4. rewrite P4.
          split; [rewrite app_length, rev_length; lia|]. split; [exact P1|].
          split; [apply in_or_app; left; apply in_rev in P3; exact P3|].
          intros Hnd Hi. apply (gi_wf _ _ _ _ HI0 Hnd Hi).
        * pose proof (gi_sent _ _ _ _ HP) as Hs. change (g_sent s2 = rev (b0 :: bl) ++ g_sent s) in Hs.
          rewrite <- Hs in HP.
          destruct (IH _ HP) as [L1 L2]. split; [|exact L2].
          rewrite Hs, app_length, rev_length in L1. lia.
  Qed.

  (* what the invariant says of a walk that ended without a value *)
  Lemma GInv_notfound init s : GInv init s (g_sent s) [] -> g_cand s = [] \/ g_cut s = true ->
    incl selfs_marked selfs_all ->
    (forall p, In p (g_sent s) -> nodes_reply p <> FVFail -> held ss p key = None) /\
    (g_cut s = false -> forall p,
       (In p init \/ exists r l, In r (g_sent s) /\ nodes_reply r = FVNodes l /\ In p l) ->
       In p (g_sent s) \/ In p selfs_all) /\
    length (g_queried s) = (length (g_sent s) + length selfs_marked)%nat /\
    g_failed s = N.of_nat (length (filter (fun p => is_fail (nodes_reply p)) (g_sent s))).
  Proof.
    intros HI Hc Hm. split; [|split; [|split]].
    - intros p Hp Hr. apply (gi_none _ _ _ _ HI) in Hp. unfold answer in Hp.
      destruct (nodes_reply p); [contradiction|exact Hp..].
    - intros Hcut p Hp. destruct (gi_cov _ _ _ _ HI p) as [G|G|G|G|[]].
      + apply in_or_app. destruct Hp as [Hp|[r [l [Hr [El Hp]]]]]; [auto|]. right.
        apply in_flat_map. exists r. split; [exact Hr|]. unfold gnamed. rewrite El. exact Hp.
      + congruence.
      + rewrite (gi_queried _ _ _ _ HI) in G. apply in_app_or in G. destruct G as [G|G]; auto.
      + auto.
      + destruct Hc as [Hc|Hc]; [rewrite Hc in G; destruct G|congruence].
    - rewrite (gi_queried _ _ _ _ HI), app_length. reflexivity.
    - apply (gi_failed _ _ _ _ HI).
  Qed.

  Lemma get_local v init : held ss self key = Some v -> get init = (ss, GetFound v self, [], false).
  Proof. intro H. unfold Model.Store.get. rewrite H. reflexivity. Qed.

  (* a key not held locally: the walk's postcondition [GPost] holds of the outcome *)
  Lemma get_spec init :
    (exists v, held ss self key = Some v /\ get init = (ss, GetFound v self, [], false)) \/
    (held ss self key = None /\
     exists s r, GPost init (ginit init) s r (N.to_nat GET_MAX_ITERATIONS) /\
       get init = (match r with Some (v, _) => fst (core_store ss self key v) | None => ss end,
                   match r with
                   | Some (v, p) => GetFound v p
                   | None => GetNotFoundR (N.of_nat (length (g_queried s))) (g_failed s)
                   end, rev (g_sent s), g_cut s)).
  Proof.
    destruct (held ss self key) as [v|] eqn:Eh; [left; exists v; auto using get_local|right].
    split; [reflexivity|]. unfold Model.Store.get. rewrite Eh. fold (ginit init).
    generalize (gloop_inv init (N.to_nat GET_MAX_ITERATIONS) (ginit init) (ginit_inv init)).
    destruct (gloop _ ss (ginit init)) as [s r]. intro H. exists s, r.
    split; [exact H|]. destruct r as [[v p]|]; reflexivity.
  Qed.

  Lemma get_AllP (P : N -> value -> Prop) init : AllP P ss -> AllP P (fst (fst (fst (get init)))).
  Proof.
    intro HA. destruct (get_spec init) as [[v0 [_ ->]]|[_ [s [[[v p]|] [[_ H] ->]]]]]; [exact HA| |exact HA].
    apply core_store_AllP; [|exact HA]. intros _. destruct H as [H _]. apply answer_some in H. eapply HA, H.
  Qed.
End GetProofs.
Arguments gi_wf {_ _ _ _ _ _ _ _ _}.

Lemma size_small_P k v : vlen v <= MGR_MAX_VALUE_SIZE -> (fun (_ : N) (w : value) => vlen w <= MGR_MAX_VALUE_SIZE) k v.
Proof. intro H; exact H. Qed.

(* every operation carries its own network behaviour and parameters *)
Inductive op :=
| OpPut (keyof : pid -> N) (reply : pid -> option (list pid)) (responsive : pid -> bool)
        (self : pid) (selfs_marked selfs_all : list pid) (repl : nat)
        (k : N) (v : value) (init : list pid)
| OpGet (nodes_reply : pid -> fv_reply) (self : pid) (selfs_marked selfs_all : list pid)
        (key : N) (init : list pid)
| OpRemotePut (p : pid) (k : N) (v : value).

Definition step (ss : stores) (o : op) : stores :=
  match o with
  | OpPut keyof reply responsive self selfs_marked selfs_all repl k v init =>
      fst (fst (put keyof reply responsive self selfs_marked selfs_all repl ss k v init))
  | OpGet nodes_reply self selfs_marked selfs_all key init =>
      fst (fst (fst (get nodes_reply self selfs_marked selfs_all key ss init)))
  | OpRemotePut p k v => fst (handle_put ss p k v)
  end.

Definition run_from (ss : stores) (ops : list op) : stores := fold_left step ops ss.
Definition run (ops : list op) : stores := run_from [] ops.

(* the operation is a put / remote PUT of exactly (k, v) *)
Definition carries (o : op) (k : N) (v : value) : Prop :=
  match o with
  | OpPut _ _ _ _ _ _ _ k' v' _ => k' = k /\ v' = v
  | OpGet _ _ _ _ _ _ => False
  | OpRemotePut _ k' v' => k' = k /\ v' = v
  end.

Lemma step_AllP (P : N -> value -> Prop) ss o :
  (forall k v, carries o k v -> vlen v <= MGR_MAX_VALUE_SIZE -> P k v) -> AllP P ss -> AllP P (step ss o).
Proof.
  intros HP HA. destruct o; cbn [step]; rewrite ?handle_put_core;
    [apply put_AllP|apply get_AllP|apply core_store_AllP]; cbn [carries] in HP; auto.
Qed.

(* a property of bindings that the initial stores have, and that every value within the limit
   carried by an operation of the history has, holds of every binding afterwards *)
Lemma run_from_AllP (P : N -> value -> Prop) ops : forall ss,
  (forall o k v, In o ops -> carries o k v -> vlen v <= MGR_MAX_VALUE_SIZE -> P k v) ->
  AllP P ss -> AllP P (run_from ss ops).
Proof.
  induction ops as [|o ops IH]; intros ss HP HA; [exact HA|].
  apply IH; [|apply step_AllP]; eauto using in_eq, in_cons.
Qed.

(* a concrete network: nodes 1..4; node 4 is silent, node 3 answers lookups but drops PUTs *)
Definition ex_keyof : pid -> N := assoc 0 [(1,10);(2,20);(3,30);(4,40)].
Definition ex_reply : pid -> option (list pid) := assoc None [(2, Some [3;1]); (3, Some [1;2;4])].
Definition ex_responsive (p : pid) : bool := negb (p =? 4) && negb (p =? 3).
Definition ex_fv : pid -> fv_reply := assoc FVFail [(1, FVNodes [2;4]); (2, FVNodes [1;3]); (3, FVNotFound)].
