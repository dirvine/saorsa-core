(* C17, Model/Placement.v.  Each function of the model that returns a [res] has one lemma
   [f_spec] saying what an Ok, an Err and a Panic answer each imply; the property theorems are
   read off [select_trace_spec].  What [topk] selects is characterised by rank under the stable
   sort (Section Rank), for any strict weak order on the keys. *)
From Coq Require Import Floats Permutation Sorted.
From SV Require Import Lib.Base Lib.ListAux Gen.PlacementConsts Model.Placement.

Lemma existsb_false {A} (f : A -> bool) l :
  existsb f l = false <-> (forall x, In x l -> f x = false).
Proof.
  induction l as [|a l IH]; cbn [existsb In]; [intuition|].
  rewrite orb_false_iff, IH. intuition (subst; auto).
Qed.

Lemma combine_snd_eq {A B} (a : list A) (b : list B) : length a = length b -> map snd (combine a b) = b.
Proof.
  revert b. induction a as [|x a IH]; intros [|y b] H; cbn in *; try discriminate; [reflexivity|].
  f_equal. apply IH. lia.
Qed.

Lemma filter_map_length {A B} (h : A -> B) (q : B -> bool) l :
  length (filter q (map h l)) = length (filter (fun e => q (h e)) l).
Proof.
  induction l as [|e l IH]; cbn [map filter]; [reflexivity|].
  destruct (q (h e)); cbn [length]; rewrite IH; reflexivity.
Qed.

Lemma filter_length_perm {A} (f : A -> bool) l l' : Permutation l l' -> length (filter f l) = length (filter f l').
Proof.
  induction 1 as [| a l l' _ IH | a b l | l l' l'' _ IH1 _ IH2]; cbn [filter].
  - reflexivity.
  - destruct (f a); cbn [length]; rewrite IH; reflexivity.
  - destruct (f a), (f b); reflexivity.
  - rewrite IH1. exact IH2.
Qed.

Lemma filter_length_cons {A} (f : A -> bool) x l :
  length (filter f (x :: l)) = ((if f x then 1 else 0) + length (filter f l))%nat.
Proof. cbn [filter]. destruct (f x); reflexivity. Qed.

Lemma NoDup_map_inj {A B} (f : A -> B) l x y :
  NoDup (map f l) -> In x l -> In y l -> f x = f y -> x = y.
Proof.
  induction l as [|z l IH]; cbn [map In]; intros Hnd Hx Hy E; [contradiction|].
  apply NoDup_cons_iff in Hnd as [Hz Hnd].
  destruct Hx as [->|Hx], Hy as [->|Hy]; auto; exfalso; apply Hz;
    [rewrite E|rewrite <- E]; apply in_map; assumption.
Qed.

(* a duplicate-free list whose elements fall into the classes [rs], at most [c] per class *)
Lemma classes_bound {A R} (P : R -> A -> bool) (rs : list R) c (l : list A) :
  NoDup l -> (forall x, In x l -> exists r, In r rs /\ P r x = true) ->
  (forall r, (length (filter (P r) l) <= c)%nat) -> (length l <= c * length rs)%nat.
Proof.
  intros Hnd Hcl Hc. transitivity (length (flat_map (fun r => filter (P r) l) rs)).
  - apply NoDup_incl_length; [exact Hnd|]. intros x Hx. destruct (Hcl x Hx) as [r [Hr HP]].
    apply in_flat_map. exists r. split; [exact Hr|exact (proj2 (filter_In _ _ _) (conj Hx HP))].
  - clear Hcl. induction rs as [|r rs IH]; cbn [flat_map length]; [lia|].
    rewrite app_length. specialize (Hc r). lia.
Qed.

Lemma in_indexed_from {A} (l : list A) s i a :
  In ((s + i)%nat, a) (combine (seq s (length l)) l) <-> nth_error l i = Some a.
Proof.
  revert s i. induction l as [|b l IH]; intros s [|i]; cbn [length seq combine In nth_error];
    try (split; [intros []|discriminate]).
  - split; [|intros [= ->]; left; f_equal; lia].
    intros [[= _ ->]|H]; [reflexivity|]. apply in_combine_l, in_seq in H. lia.
  - rewrite <- Nat.add_succ_comm, IH. split; [intros [[= E _]|H]; [lia|exact H]|auto].
Qed.

Lemma in_indexed {A} (l : list A) i a : In (i, a) (indexed l) <-> nth_error l i = Some a.
Proof. exact (in_indexed_from l 0 i a). Qed.

Lemma combine_map {A B C} (f : A -> B) (g : A -> C) l :
  combine (map f l) (map g l) = map (fun x => (f x, g x)) l.
Proof. induction l as [|x l IH]; [reflexivity|]. cbn. f_equal. exact IH. Qed.

Lemma map_snd_indexed {A B} (f : A -> B) l : map (fun q => f (snd q)) (indexed l) = map f l.
Proof. rewrite <- map_map. unfold indexed. rewrite combine_snd_eq by apply seq_length. reflexivity. Qed.

Section SortFacts.
  Context {A : Type} (gt : A -> A -> bool).

  Lemma insert_desc_perm x l : Permutation (insert_desc gt x l) (x :: l).
  Proof.
    induction l as [|y t IH]; cbn [insert_desc]; [reflexivity|].
    destruct (gt y x); [|reflexivity].
    rewrite IH. apply perm_swap.
  Qed.

  Lemma sort_desc_perm l : Permutation (sort_desc gt l) l.
  Proof.
    induction l as [|x l IH]; cbn [sort_desc fold_right]; [reflexivity|].
    fold (sort_desc gt l). rewrite insert_desc_perm. constructor. exact IH.
  Qed.
End SortFacts.

Lemma insert_desc_map {A B} (gt : B -> B -> bool) (f : A -> B) x s :
  map f (insert_desc (fun a b => gt (f a) (f b)) x s) = insert_desc gt (f x) (map f s).
Proof.
  induction s as [|y t IH]; cbn [insert_desc map]; [reflexivity|].
  destruct (gt (f y) (f x)); cbn [map]; [rewrite IH|]; reflexivity.
Qed.

Lemma sort_desc_map {A B} (gt : B -> B -> bool) (f : A -> B) l :
  map f (sort_desc (fun a b => gt (f a) (f b)) l) = sort_desc gt (map f l).
Proof.
  induction l as [|x l IH]; cbn [sort_desc fold_right map]; [reflexivity|].
  rewrite insert_desc_map. f_equal. exact IH.
Qed.

Section TopK.
  Context {K I : Type} (gt : K -> K -> bool).

  Lemma topk_length keys (ids : list I) k :
    length keys = length ids -> (k <= length ids)%nat -> length (topk gt keys ids k) = k.
  Proof.
    intros Hl Hk. unfold topk. rewrite map_length, firstn_length.
    rewrite (Permutation_length (sort_desc_perm _ _)), combine_length. lia.
  Qed.

  (* the chosen entries are distinct POSITIONS of the candidate list even when ids repeat *)
  Lemma topk_perm keys (ids : list I) k :
    length keys = length ids -> exists rest, Permutation (topk gt keys ids k ++ rest) ids.
  Proof.
    intros Hl. unfold topk. set (s := sort_desc _ _).
    exists (map snd (skipn k s)). rewrite <- map_app, firstn_skipn.
    etransitivity; [apply Permutation_map, sort_desc_perm|]. rewrite (combine_snd_eq keys ids Hl). reflexivity.
  Qed.
End TopK.

(* what [topk] selects under its stable sort: the entries that fewer than k entries rank before *)
Section Rank.
  Context {A K I : Type} (gt : K -> K -> bool) (key : A -> K) (id : A -> I).
  Hypothesis gt_irrefl : forall x, gt x x = false.
  Hypothesis gt_trans : forall x y z, gt x y = true -> gt y z = true -> gt x z = true.
  Hypothesis gt_negtrans : forall x y z, gt x y = false -> gt y z = false -> gt x z = false.

  (* q ranks before p in the stable descending sort of a list of (position, entry):
     greater key, or equal key and earlier position *)
  Definition bef (q p : nat * A) : bool :=
    gt (key (snd q)) (key (snd p))
    || (negb (gt (key (snd p)) (key (snd q))) && (fst q <? fst p)%nat).

  Let gtp (p q : nat * A) : bool := gt (key (snd p)) (key (snd q)).
  Let Bef (q p : nat * A) : Prop := bef q p = true.

  Lemma bef_irrefl p : bef p p = false.
  Proof. unfold bef. rewrite gt_irrefl, Nat.ltb_irrefl. reflexivity. Qed.

  Lemma bef_trans p q r : bef p q = true -> bef q r = true -> bef p r = true.
  Proof.
    unfold bef. intros H1 H2.
    destruct (gt (key (snd p)) (key (snd r))) eqn:Epr; [reflexivity|].
    destruct (gt (key (snd p)) (key (snd q))) eqn:Epq, (gt (key (snd q)) (key (snd r))) eqn:Eqr; cbn [orb] in *.
    - rewrite (gt_trans _ _ _ Epq Eqr) in Epr. discriminate.
    - apply andb_true_iff in H2 as [H2 _]. apply negb_true_iff in H2.
      rewrite (gt_negtrans _ _ _ Epr H2) in Epq. discriminate.
    - apply andb_true_iff in H1 as [H1 _]. apply negb_true_iff in H1.
      rewrite (gt_negtrans _ _ _ H1 Epr) in Eqr. discriminate.
    - apply andb_true_iff in H1 as [H1 P1]. apply andb_true_iff in H2 as [H2 P2].
      apply negb_true_iff in H1, H2. rewrite (gt_negtrans _ _ _ H2 H1). cbn [negb andb]. lia.
  Qed.

  (* [x] comes from an earlier position than everything in [s] *)
  Lemma insert_sorted x s :
    StronglySorted Bef s -> (forall y, In y s -> (fst x < fst y)%nat) ->
    StronglySorted Bef (insert_desc gtp x s).
  Proof.
    induction s as [|y t IH]; intros Hs Hpos; cbn [insert_desc]; [repeat constructor|].
    inversion Hs as [|? ? Hst Hy]; subst.
    destruct (gtp y x) eqn:E0.
    - constructor; [apply IH; [exact Hst|intros z Hz; apply Hpos; right; exact Hz]|].
      apply (Permutation_Forall (Permutation_sym (insert_desc_perm _ x t))). constructor; [|exact Hy].
      unfold Bef, bef. fold (gtp y x). rewrite E0. reflexivity.
    - assert (E : bef x y = true).
      { unfold bef. fold (gtp y x). rewrite E0, (proj2 (Nat.ltb_lt _ _) (Hpos y (or_introl eq_refl))).
        apply orb_true_r. }
      constructor; [exact Hs|]. constructor; [exact E|].
      eapply Forall_impl; [|exact Hy]. intros z. exact (bef_trans _ _ _ E).
  Qed.

  Lemma sort_sorted (l : list A) s0 :
    StronglySorted Bef (sort_desc gtp (combine (seq s0 (length l)) l)).
  Proof.
    revert s0. induction l as [|x l IH]; intros s0; cbn [length seq combine]; [constructor|].
    apply insert_sorted; [apply IH|].
    intros [j e] Hy. apply (Permutation_in _ (sort_desc_perm _ _)), in_combine_l, in_seq in Hy. cbn [fst]. lia.
  Qed.

  Lemma firstn_rank s : StronglySorted Bef s -> forall k p, In p s ->
    (In p (firstn k s) <-> (length (filter (fun q => bef q p) s) < k)%nat).
  Proof.
    induction 1 as [|h t _ IH Hh]; intros k p Hp; [contradiction|].
    rewrite Forall_forall in Hh.
    destruct k as [|k]; [cbn [firstn]; split; [intros []|lia]|].
    rewrite filter_length_cons. cbn [firstn In]. destruct Hp as [<-|Hp].
    - (* nothing ranks before the head *)
      rewrite bef_irrefl. destruct (filter _ t) as [|q r] eqn:E; [cbn; split; [lia|auto]|].
      assert (Hq : In q (q :: r)) by (left; reflexivity). rewrite <- E in Hq.
      apply filter_In in Hq as [Hq Hb]. pose proof (bef_trans _ _ _ (Hh q Hq) Hb) as C.
      rewrite bef_irrefl in C. discriminate.
    - rewrite (Hh p Hp), <- Nat.succ_lt_mono, <- (IH k p Hp).
      split; [intros [->|H]; [|exact H]|auto].
      (* the head does not occur in the tail *)
      specialize (Hh p Hp). unfold Bef in Hh. rewrite bef_irrefl in Hh. discriminate.
  Qed.

  Theorem topk_rank l k i e :
    NoDup (map id l) -> nth_error l i = Some e ->
    (In (id e) (topk gt (map key l) (map id l) k) <->
     (length (filter (fun q => bef q (i, e)) (indexed l)) < k)%nat).
  Proof.
    intros Hnd He. set (S := sort_desc gtp (indexed l)).
    assert (Hp : Permutation S (indexed l)) by apply sort_desc_perm.
    rewrite <- (map_snd_indexed id) in Hnd.
    assert (Hie : In (i, e) (indexed l)) by (apply in_indexed; exact He).
    assert (Hin : In (i, e) S) by exact (Permutation_in _ (Permutation_sym Hp) Hie).
    (* sorting the (key, id) pairs is sorting the indexed entries and forgetting the rest *)
    replace (topk gt (map key l) (map id l) k) with (map (fun q => id (snd q)) (firstn k S)).
    2:{ unfold topk. rewrite combine_map, <- (map_snd_indexed (fun x => (key x, id x)) l).
        rewrite <- (sort_desc_map (fun a b => gt (fst a) (fst b))), firstn_map, map_map. reflexivity. }
    rewrite (filter_length_perm _ _ _ (Permutation_sym Hp)), <- (firstn_rank S (sort_sorted l 0) k _ Hin).
    split; [|apply (in_map (fun q => id (snd q)) _ (i, e))].
    intros H. apply in_map_iff in H as [q [Eq Hq]]. replace (i, e) with q; [exact Hq|].
    apply (NoDup_map_inj _ _ _ _ Hnd); [|exact Hie|exact Eq]. exact (Permutation_in _ Hp (In_firstn _ _ _ Hq)).
  Qed.

  (* the same, counting among the other entries only *)
  Corollary topk_rank_rest l k i e rest :
    NoDup (map id l) -> Permutation (indexed l) ((i, e) :: rest) ->
    (In (id e) (topk gt (map key l) (map id l) k) <->
     (length (filter (fun q => bef q (i, e)) rest) < k)%nat).
  Proof.
    intros Hnd Hp.
    rewrite (topk_rank l k i e Hnd), (filter_length_perm _ _ _ Hp), filter_length_cons, bef_irrefl; [reflexivity|].
    apply in_indexed, (Permutation_in _ (Permutation_sym Hp)). left; reflexivity.
  Qed.
End Rank.

Lemma keys_of_length kf draw off ws : length (keys_of kf draw off ws) = length ws.
Proof. unfold keys_of. rewrite map_length, combine_length, seq_length. lia. Qed.

(* an Ok answer picks k distinct positions: with the rest it is a permutation of the listed ids;
   a panic means that a NaN key reached the sort although every weight passed the guard *)
Lemma sample_nodes_spec kf draw off cands k r :
  sample_nodes kf draw off cands k = r ->
  match r with
  | Ok sel => length sel = k /\ (exists rest, Permutation (sel ++ rest) (map fst cands))
              /\ ((0 < k)%nat -> forall c, In c cands -> weight_bad (snd c) = false)
  | Err _ => True
  | Panic => (forall c, In c cands -> weight_bad (snd c) = false)
             /\ existsb PrimFloat.is_nan (keys_of kf draw off (map snd cands)) = true
  end.
Proof.
  intros <-. unfold sample_nodes, sample_keys, sample_keys_gen.
  assert (Hl : length (keys_of kf draw off (map snd cands)) = length (map fst cands))
    by (rewrite keys_of_length, !map_length; reflexivity).
  destruct cands as [|c0 cands']; [exact I|]. set (cands := c0 :: cands') in *.
  destruct (length cands <? k)%nat eqn:Ek; [exact I|]. apply Nat.ltb_ge in Ek.
  destruct (k =? 0)%nat eqn:E0.
  - apply Nat.eqb_eq in E0. subst k.
    split; [reflexivity|]. split; [exists (map fst cands); reflexivity|lia].
  - destruct (existsb _ cands) eqn:Eb; [exact I|]. rewrite existsb_false in Eb.
    destruct (existsb PrimFloat.is_nan _); [split; [exact Eb|reflexivity]|].
    split; [apply topk_length; [exact Hl|rewrite map_length; exact Ek]|].
    split; [apply topk_perm; exact Hl|intros _; exact Eb].
Qed.

Lemma sample_nodes_no_panic kf draw off cands k :
  (forall u w, in_unit_open u = true -> weight_bad w = false -> PrimFloat.is_nan (kf u w) = false) ->
  (forall i, in_unit_open (draw i) = true) ->
  sample_nodes kf draw off cands k <> Panic.
Proof.
  intros Hkf Hd H. apply sample_nodes_spec in H as [Hb Hn].
  apply existsb_exists in Hn as (x & Hx & Hn).
  apply in_map_iff in Hx as [[i w] [<- Hin]]. apply in_combine_r, in_map_iff in Hin as [c [<- Hc]].
  rewrite Hkf in Hn; [discriminate|apply Hd|exact (Hb c Hc)].
Qed.

Lemma validate_spec dist sel r :
  validate dist sel = r ->
  match r with
  | Ok _ => geo_violation dist sel = false /\ region_violation sel = false /\ asn_violation sel = false
  | Err e => e = EDivGeo \/ e = EDivRegion \/ e = EDivAsn
  | Panic => False
  end.
Proof.
  intros <-. unfold validate.
  destruct (geo_violation dist sel), (region_violation sel), (asn_violation sel); auto.
Qed.

Lemma validate_err_kind dist sel e :
  validate dist sel = Err e -> e = EDivGeo \/ e = EDivRegion \/ e = EDivAsn.
Proof. exact (validate_spec dist sel (Err e)). Qed.

Lemma geo_ok_pairs dist sel a b :
  geo_violation dist sel = false -> In a sel -> In b sel -> se_id a <> se_id b ->
  flt (dist (se_id a) (se_id b)) thr_geo = false.
Proof.
  intros H Ha Hb Hab. apply In_nth_error in Ha as [i Ha]. apply In_nth_error in Hb as [j Hb].
  unfold geo_violation in H. rewrite existsb_false in H.
  specialize (H (i, a) (proj2 (in_indexed sel i a) Ha)). cbn beta in H.
  rewrite existsb_false in H. specialize (H (j, b) (proj2 (in_indexed sel j b) Hb)).
  cbn [fst snd] in H. apply andb_false_iff in H as [H|H]; [|exact H].
  apply negb_false_iff, Nat.eqb_eq in H. congruence.
Qed.

Lemma thr_geo_is_50 : thr_geo = 50%float.
Proof. reflexivity. Qed.
Lemma max_per_region_is_2 : N.to_nat PLC_MAX_PER_REGION = 2%nat.
Proof. reflexivity. Qed.
Lemma max_per_asn_is_3 : N.to_nat PLC_MAX_PER_ASN = 3%nat.
Proof. reflexivity. Qed.

(* chosen in its own round's candidate list, absent from every later round's list *)
Fixpoint without_replacement (ids : list N) (rems : list (list N)) : Prop :=
  match ids, rems with
  | [], [] => True
  | x :: ids', r :: rems' => In x r /\ Forall (fun r' => ~ In x r') rems' /\ without_replacement ids' rems'
  | _, _ => False
  end.

Lemma wr_length ids rems : without_replacement ids rems -> length ids = length rems.
Proof.
  revert rems. induction ids as [|x ids IH]; intros [|r rems] H; cbn in *; try contradiction; [reflexivity|].
  f_equal. apply IH, H.
Qed.

Lemma wr_in ids rems : without_replacement ids rems ->
  forall x, In x ids -> exists r, In r rems /\ In x r.
Proof.
  revert rems. induction ids as [|y ids IH]; intros [|r rems] H x Hx; cbn in *; try contradiction.
  destruct H as (Hy & _ & H). destruct Hx as [<-|Hx]; [exists r; auto|].
  destruct (IH rems H x Hx) as [r' [Hr' Hx']]. exists r'; auto.
Qed.

Lemma wr_NoDup ids rems : without_replacement ids rems -> NoDup ids.
Proof.
  revert rems. induction ids as [|y ids IH]; intros [|r rems] H; cbn in *; try contradiction; [constructor|].
  destruct H as (_ & Hlater & H). constructor; [|eapply IH; exact H].
  intro Hin. destruct (wr_in _ _ H y Hin) as [r' [Hr' Hy']].
  rewrite Forall_forall in Hlater. exact (Hlater r' Hr' Hy').
Qed.

Lemma wr_nth ids rems : without_replacement ids rems ->
  forall i j x r, nth_error ids i = Some x -> nth_error rems j = Some r ->
    (i = j -> In x r) /\ ((i < j)%nat -> ~ In x r).
Proof.
  revert rems. induction ids as [|y ids IH]; intros [|r0 rems] H i j x r Hi Hj; cbn in H; try contradiction.
  - destruct i; discriminate.
  - destruct H as (Hy & Hlater & H).
    destruct i as [|i], j as [|j]; cbn in Hi, Hj.
    + inv Hi; inv Hj. split; [auto|lia].
    + inv Hi. split; [lia|]. intros _. rewrite Forall_forall in Hlater. apply Hlater.
      eapply nth_error_In; exact Hj.
    + split; lia.
    + destruct (IH rems H i j x r Hi Hj) as [A B]. split; [intros E; apply A; lia|intros L; apply B; lia].
Qed.

Lemma calc_weight_spec pf t s c d a b g r :
  calc_weight pf t s c d a b g = r ->
  match r with
  | Ok w => PrimFloat.is_finite w = true /\ PrimFloat.leb w 0 = false
  | Err _ => True
  | Panic => False
  end.
Proof.
  intros <-. unfold calc_weight.
  destruct (negb (in_unit t)), (negb (in_unit s)), (flt c fzero), (flt d fzero); try exact I.
  cbv zeta. destruct (PrimFloat.is_finite _) eqn:Ef; [|exact I].
  destruct (fle _ fzero) eqn:El; [exact I|]. split; [exact Ef|exact El].
Qed.

Section StrategyFacts.
  Variable kf pf : float -> float -> float.
  Variable dist : N -> N -> float.
  Variable md : N -> option (N * N).
  Variable cf : cfg.
  Variable draw : nat -> float.

  Lemma weights_of_spec selected rem r :
    weights_of pf dist md cf selected rem = r ->
    match r with Ok ws => map fst ws = rem | Err _ => True | Panic => False end.
  Proof.
    revert r. induction rem as [|c t IH]; intros r <-; cbn [weights_of]; [reflexivity|].
    destruct (md c) as [ra|]; [|exact I].
    destruct (calc_weight _ _ _ _ _ _ _ _) as [w| |] eqn:Ec;
      [|exact I|exact (calc_weight_spec _ _ _ _ _ _ _ _ _ Ec)].
    specialize (IH _ eq_refl). destruct (weights_of pf dist md cf selected t); [|exact I|exact IH].
    cbn [map fst]. f_equal. exact IH.
  Qed.

  Lemma remove_id_in x y l : In y (remove_id x l) <-> In y l /\ y <> x.
  Proof. unfold remove_id. rewrite filter_In, negb_true_iff, N.eqb_neq. reflexivity. Qed.

  Lemma rounds_spec todo : forall off selected hist rem sel' hist',
    rounds kf pf dist md cf draw todo off selected hist rem = Ok (sel', hist') ->
    exists added rems,
      sel' = selected ++ added /\ hist' = hist ++ rems /\
      length added = todo /\
      Forall (fun e => md (se_id e) = Some (snd e)) added /\
      Forall (fun r => incl r rem) rems /\
      without_replacement (map se_id added) rems.
  Proof.
    induction todo as [|todo IH]; intros off selected hist rem sel' hist' H; cbn [rounds] in H.
    - inv H. exists [], []. rewrite !app_nil_r. repeat split; constructor.
    - destruct rem as [|c0 rem0]; [discriminate|]. set (rem := c0 :: rem0) in *.
      destruct (weights_of pf dist md cf selected rem) as [ws| |] eqn:Ew; try discriminate.
      set (ws' := sort_desc _ ws) in *.
      destruct (sample_nodes kf draw off ws' 1) as [[|x xs]| |] eqn:Es; try discriminate.
      destruct (md x) as [ra|] eqn:Em; [|discriminate].
      apply IH in H as (added & rems & -> & -> & Hlen & Hmd & Hincl & Hwr).
      assert (Hx : In x rem).
      { apply sample_nodes_spec in Es as (_ & [rest Hp] & _).
        rewrite <- (weights_of_spec _ _ _ Ew). apply Permutation_in with (map fst ws').
        - apply Permutation_map, sort_desc_perm.
        - eapply Permutation_in; [exact Hp|]. left; reflexivity. }
      exists ((x, ra) :: added), (rem :: rems).
      rewrite <- !app_assoc. rewrite Forall_forall in Hincl.
      repeat split; [cbn [length]; lia|constructor; [exact Em|exact Hmd]| |exact Hx| |exact Hwr].
      + constructor; [apply incl_refl|].
        rewrite Forall_forall. intros r Hr y Hy. exact (proj1 (proj1 (remove_id_in _ _ _) (Hincl r Hr y Hy))).
      + rewrite Forall_forall. intros r Hr Hin. exact (proj2 (proj1 (remove_id_in _ _ _) (Hincl r Hr x Hin)) eq_refl).
  Qed.

  Lemma rounds_not_panic
    (Hkf : forall u w, in_unit_open u = true -> weight_bad w = false -> PrimFloat.is_nan (kf u w) = false)
    (Hd : forall i, in_unit_open (draw i) = true) todo :
    forall off selected hist rem, rounds kf pf dist md cf draw todo off selected hist rem <> Panic.
  Proof.
    induction todo as [|todo IH]; intros off selected hist rem; cbn [rounds]; [discriminate|].
    destruct rem as [|c0 rem0]; [discriminate|]. set (rem := c0 :: rem0).
    destruct (weights_of pf dist md cf selected rem) as [ws| |] eqn:Ew;
      [|discriminate|exact (False_ind _ (weights_of_spec _ _ _ Ew))].
    destruct (sample_nodes kf draw off _ 1) as [[|x xs]| |] eqn:Es; try discriminate.
    - destruct (md x); [apply IH|discriminate].
    - exfalso. eapply sample_nodes_no_panic; eauto.
  Qed.

  Definition region_count (r : N) (sel : list N) : nat :=
    length (filter (fun x => match md x with Some ra => (fst ra =? r)%N | None => false end) sel).
  Definition asn_count (a : N) (sel : list N) : nat :=
    length (filter (fun x => match md x with Some ra => (snd ra =? a)%N | None => false end) sel).

  (* The entries carry the metadata of their ids, so counting the ids of a class is counting
     entries.  With [p := fst] (region) or [snd] (ASN) and [m] the limit, the second hypothesis is
     [region_violation added = false] or [asn_violation added = false]: they test the classes
     that occur; the others are empty. *)
  Lemma class_count_cap (p : N * N -> N) m (added : list sel_entry) v :
    Forall (fun e => md (se_id e) = Some (snd e)) added ->
    existsb (fun s => (m <? N.of_nat (length (filter (fun t : sel_entry => (p (snd t) =? p (snd s))%N) added)))%N) added = false ->
    (length (filter (fun x => match md x with Some ra => (p ra =? v)%N | None => false end) (map se_id added))
     <= N.to_nat m)%nat.
  Proof.
    intros Hmd H. rewrite Forall_forall in Hmd. rewrite filter_map_length.
    rewrite (filter_ext_in _ (fun s : sel_entry => (p (snd s) =? v)%N)) by (intros e He; rewrite (Hmd e He); reflexivity).
    destruct (filter _ added) as [|s f] eqn:E; [cbn; lia|].
    pose proof (in_eq s f) as Hs. rewrite <- E in Hs.
    apply filter_In in Hs as [Hs Ev]. apply N.eqb_eq in Ev. subst v.
    rewrite existsb_false in H. specialize (H s Hs). rewrite E in H. lia.
  Qed.

  Lemma region_cap added r :
    Forall (fun e => md (se_id e) = Some (snd e)) added -> region_violation added = false ->
    (region_count r (map se_id added) <= N.to_nat PLC_MAX_PER_REGION)%nat.
  Proof. exact (class_count_cap fst PLC_MAX_PER_REGION added r). Qed.

  Lemma asn_cap added a :
    Forall (fun e => md (se_id e) = Some (snd e)) added -> asn_violation added = false ->
    (asn_count a (map se_id added) <= N.to_nat PLC_MAX_PER_ASN)%nat.
  Proof. exact (class_count_cap snd PLC_MAX_PER_ASN added a). Qed.

  Lemma select_trace_spec cands k sel hist :
    select_trace kf pf dist md cf draw cands k = Ok (sel, hist) ->
    length sel = k /\ NoDup sel /\ incl sel cands /\
    (forall x, In x sel -> md x <> None) /\
    (forall r, (region_count r sel <= 2)%nat) /\
    (forall a, (asn_count a sel <= 3)%nat) /\
    (forall x y, In x sel -> In y sel -> x <> y -> PrimFloat.ltb (dist x y) 50 = false) /\
    (k <= length cands)%nat /\
    without_replacement sel hist /\ Forall (fun r => incl r cands) hist.
  Proof.
    unfold select_trace. intros H.
    destruct cands as [|c0 cands0]; [discriminate|]. set (cands := c0 :: cands0) in *.
    destruct (length cands <? k)%nat eqn:Ek; [discriminate|]. apply Nat.ltb_ge in Ek.
    destruct (rounds kf pf dist md cf draw k 0 [] [] cands) as [[sel0 hist0]| |] eqn:Er; try discriminate.
    destruct (validate dist sel0) as [u| |] eqn:Ev; try discriminate. inv H.
    apply rounds_spec in Er as (added & rems & E1 & E2 & Hlen & Hmd & Hincl & Hwr).
    cbn [app] in E1, E2. subst sel0 hist.
    apply validate_spec in Ev as (Hg & Hr & Ha).
    repeat split; [rewrite map_length; exact Hlen|exact (wr_NoDup _ _ Hwr)| | | | | |exact Ek|exact Hwr|exact Hincl].
    - intros x Hx. destruct (wr_in _ _ Hwr x Hx) as [r [Hr' Hxr]].
      rewrite Forall_forall in Hincl. exact (Hincl r Hr' x Hxr).
    - rewrite Forall_forall in Hmd.
      intros x Hx. apply in_map_iff in Hx as [e [<- He]]. rewrite (Hmd e He). discriminate.
    - intros r. rewrite <- max_per_region_is_2. exact (region_cap added r Hmd Hr).
    - intros a. rewrite <- max_per_asn_is_3. exact (asn_cap added a Hmd Ha).
    - intros x y Hx Hy Hxy. apply in_map_iff in Hx as [ea [<- Hx]]. apply in_map_iff in Hy as [eb [<- Hy]].
      rewrite <- thr_geo_is_50. exact (geo_ok_pairs dist added ea eb Hg Hx Hy Hxy).
  Qed.

  (* [select_trace_spec] in two parts: the selected set, and the rounds that chose it *)
  Lemma select_trace_shape cands k sel hist :
    select_trace kf pf dist md cf draw cands k = Ok (sel, hist) ->
    length sel = k /\ NoDup sel /\ incl sel cands /\
    (forall x, In x sel -> md x <> None) /\
    (forall r, (region_count r sel <= 2)%nat) /\
    (forall a, (asn_count a sel <= 3)%nat) /\
    (forall x y, In x sel -> In y sel -> x <> y -> PrimFloat.ltb (dist x y) 50 = false).
  Proof. intros H. apply select_trace_spec in H. tauto. Qed.

  Lemma select_trace_rounds cands k sel hist :
    select_trace kf pf dist md cf draw cands k = Ok (sel, hist) ->
    length hist = k /\ without_replacement sel hist.
  Proof.
    intros H. apply select_trace_spec in H. assert (Hwr : without_replacement sel hist) by tauto.
    rewrite <- (wr_length _ _ Hwr). tauto.
  Qed.

  Lemma select_trace_not_panic
    (Hkf : forall u w, in_unit_open u = true -> weight_bad w = false -> PrimFloat.is_nan (kf u w) = false)
    (Hd : forall i, in_unit_open (draw i) = true) cands k :
    select_trace kf pf dist md cf draw cands k <> Panic.
  Proof.
    unfold select_trace. destruct cands as [|c0 cands0]; [discriminate|].
    destruct (length (c0 :: cands0) <? k)%nat; [discriminate|].
    destruct (rounds _ _ _ _ _ _ _ _ _ _ _) as [[sel0 hist0]| |] eqn:Er;
      [|discriminate|exact (False_ind _ (rounds_not_panic Hkf Hd _ _ _ _ _ Er))].
    destruct (validate dist sel0) as [u| |] eqn:Ev; [discriminate..|exact (False_ind _ (validate_spec _ _ _ Ev))].
  Qed.

  Lemma select_nodes_trace cands k sel :
    select_nodes kf pf dist md cf draw cands k = Ok sel ->
    exists hist, select_trace kf pf dist md cf draw cands k = Ok (sel, hist).
  Proof.
    unfold select_nodes. destruct (select_trace _ _ _ _ _ _ _ _) as [[s h]| |]; try discriminate.
    intros [= <-]. exists h. reflexivity.
  Qed.
End StrategyFacts.

(* [fst ra < 8]: the eight variants of NetworkRegion (src/placement/types.rs); no generated
   constant carries their number.  At most two selected nodes in each. *)
Lemma select_le_16 kf pf dist md cf draw cands k sel :
  (forall x ra, md x = Some ra -> (fst ra < 8)%N) ->
  select_nodes kf pf dist md cf draw cands k = Ok sel -> (k <= 16)%nat.
Proof.
  intros Hreg H. destruct (select_nodes_trace _ _ _ _ _ _ _ _ _ H) as [hist Ht].
  pose proof (select_trace_shape _ _ _ _ _ _ _ _ _ _ Ht) as (Hl & Hnd & _ & Hmd & Hr & _).
  rewrite <- Hl.
  apply (classes_bound (fun r x => match md x with Some ra => (fst ra =? r)%N | None => false end)
                       [0; 1; 2; 3; 4; 5; 6; 7]%N 2 sel Hnd); [|exact Hr].
  intros x Hx. specialize (Hmd x Hx). destruct (md x) as [ra|] eqn:E; [|contradiction].
  exists (fst ra). split; [|apply N.eqb_refl]. specialize (Hreg x ra E). cbn [In]. lia.
Qed.
