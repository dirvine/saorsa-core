(* C19: every text form of an address reads back as that address.
   The accepted languages of std's parsers come from one fact about the digit loop on a run of digits
   ([loop_app]); the crate's word table is checked once, by evaluation; the word and display forms rest
   on pieces that avoid their separator coming back from split/join/replace as they went in. *)
From Coq Require Import FSetPositive.
From SV Require Import Lib.Base Lib.Bytes Gen.AddressDict Gen.AddressGlue Gen.AddressConsts Model.Address.
Local Open Scope N_scope.

Lemma forallb_impl {A} (p q : A -> bool) l : (forall x, p x = true -> q x = true) -> forallb p l = true -> forallb q l = true.
Proof. intros H Hp. rewrite forallb_forall in *. auto. Qed.

Fixpoint nrange_from (start : N) (k : nat) : list N :=
  match k with O => [] | S k' => start :: nrange_from (start + 1) k' end.
Definition nrange (n : N) : list N := nrange_from 0 (N.to_nat n).
Lemma In_nrange_from k : forall start x, start <= x -> x < start + N.of_nat k -> In x (nrange_from start k).
Proof.
  induction k as [|k IH]; intros start x H1 H2; [lia|].
  cbn [nrange_from In]. destruct (N.eq_dec start x) as [->|Hne]; [left; reflexivity|].
  right. apply IH; lia.
Qed.
Lemma sweep (f : N -> bool) n : forallb f (nrange n) = true -> forall x, x < n -> f x = true.
Proof. intros H x Hx. rewrite forallb_forall in H. apply H, In_nrange_from; lia. Qed.

Lemma of_to_digits k : forall n, n < CRATE_BASE ^ N.of_nat k -> of_digits (to_digits k n) = n.
Proof.
  induction k as [|k IH]; intros n H; cbn [to_digits of_digits].
  - change (CRATE_BASE ^ N.of_nat 0) with 1 in H. lia.
  - rewrite IH, N.add_comm; [symmetry; apply N.div_mod'|].
    apply N.div_lt_upper_bound; [discriminate|]. rewrite <- N.pow_succ_r', <- Nat2N.inj_succ. exact H.
Qed.

Lemma to_digits_range k : forall n, Forall (fun d => d < CRATE_BASE) (to_digits k n).
Proof. induction k as [|k IH]; intro n; constructor; [apply N.mod_lt; discriminate|apply IH]. Qed.

(* four base-4096 digits hold exactly four octets and a port: 2^48 *)
Lemma base_pow : CRATE_BASE ^ N.of_nat nwords = 256 * 256 * 256 * 256 * 65536.
Proof. reflexivity. Qed.
Lemma pack_lt a : wf4 a -> pack a < CRATE_BASE ^ N.of_nat nwords.
Proof.
  destruct a as [o1 o2 o3 o4 p]. unfold wf4, pack; cbn [a1 a2 a3 a4 aport]. rewrite base_pow. lia.
Qed.

Lemma div_step x b y : y < b -> (x * b + y) / b = x.
Proof. intro H. symmetry. apply (N.div_unique _ b x y H). lia. Qed.
Lemma mod_step x b y : y < b -> (x * b + y) mod b = y.
Proof. intro H. symmetry. apply (N.mod_unique _ b x y H). lia. Qed.

Lemma unpack_pack a : wf4 a -> unpack (pack a) = a.
Proof.
  destruct a as [o1 o2 o3 o4 p]. unfold wf4, pack, unpack; cbn [a1 a2 a3 a4 aport]. intros (H1 & H2 & H3 & H4 & H5).
  change 1099511627776 with (65536 * 256 * 256 * 256). change 4294967296 with (65536 * 256 * 256).
  change 16777216 with (65536 * 256). rewrite <- !N.div_div by discriminate.
  rewrite !div_step, !mod_step, (N.mod_small o1) by assumption. reflexivity.
Qed.

Lemma words_roundtrip a : wf4 a -> unpack (of_digits (to_digits nwords (pack a))) = a.
Proof. intro H. rewrite of_to_digits by (apply pack_lt, H). apply unpack_pack, H. Qed.

Lemma unpack_wf n : wf4 (unpack n).
Proof. unfold wf4, unpack; cbn [a1 a2 a3 a4 aport]. repeat split; apply N.mod_lt; discriminate. Qed.

Lemma digits_injective a b : wf4 a -> wf4 b ->
  to_digits nwords (pack a) = to_digits nwords (pack b) -> a = b.
Proof.
  intros Ha Hb E. rewrite <- (words_roundtrip a Ha), <- (words_roundtrip b Hb), E. reflexivity.
Qed.

Definition stops (rest : str) : bool := match rest with [] => true | c :: _ => negb (is_digit c) end.
Definition val_from (acc : N) (ds : str) : N := fold_left (fun a c => a * 10 + (c - 48)) ds acc.

Lemma len_cons {A} (x : A) l : len (x :: l) = 1 + len l.
Proof. unfold len. cbn [length]. lia. Qed.
Lemma len_app {A} (l1 l2 : list A) : len (l1 ++ l2) = len l1 + len l2.
Proof. unfold len. rewrite app_length. lia. Qed.
Lemma len_zero {A} (l : list A) : len l = 0 -> l = [].
Proof. destruct l; [reflexivity|]. rewrite len_cons. lia. Qed.

Lemma val_from_cons acc c ds : val_from acc (c :: ds) = val_from (acc * 10 + (c - 48)) ds.
Proof. reflexivity. Qed.
Lemma val_from_ge ds : forall acc, acc <= val_from acc ds.
Proof.
  induction ds as [|c ds IH]; intro acc; [cbn; lia|].
  rewrite val_from_cons. specialize (IH (acc * 10 + (c - 48))). lia.
Qed.

(* The model tests a character against a literal by pattern ([48 :: _] here, '+' in [parse_u16], '[' in
   [parse_sock]).  Such a pattern is a nest of matches on the bits of the [positive], which no equation
   about [=?] rewrites: the character is taken apart down to those bits, once for each literal, here,
   in [parse_u16_digit] and in [parse_sock_eq]. *)
Lemma lead0_cons c r : lead0 (c :: r) = (c =? 48).
Proof. destruct c as [|p]; [reflexivity|]. repeat (destruct p as [p|p|]; try reflexivity). Qed.

Lemma digit_span s : exists ds rest, s = ds ++ rest /\ forallb is_digit ds = true /\ stops rest = true.
Proof.
  induction s as [|c s (ds & rest & -> & Hd & Hs)]; [exists [], []; auto|].
  destruct (is_digit c) eqn:Hc.
  - exists (c :: ds), rest. cbn [forallb]. rewrite Hc. auto.
  - exists [], (c :: ds ++ rest). cbn [stops]. rewrite Hc. auto.
Qed.

(* The loop on such a run.  The value and the count only grow, so the checks made on the way are
   implied by the same checks on the whole run. *)
Lemma loop_app limit maxd ds : forall rest acc cnt,
  forallb is_digit ds = true -> stops rest = true -> acc <= limit -> maxd = 0 \/ cnt <= maxd ->
  read_num_loop (ds ++ rest) acc cnt limit maxd =
  if (val_from acc ds <=? limit) && ((maxd =? 0) || (cnt + len ds <=? maxd))
  then Some (val_from acc ds, cnt + len ds, rest) else None.
Proof.
  induction ds as [|c ds IH]; intros rest acc cnt Hd Hs Ha Hm.
  - change (len []) with 0. rewrite N.add_0_r. cbn [app val_from fold_left].
    replace ((acc <=? limit) && ((maxd =? 0) || (cnt <=? maxd))) with true by lia.
    destruct rest as [|x r]; cbn [stops read_num_loop] in *; [reflexivity|].
    apply negb_true_iff in Hs. rewrite Hs. reflexivity.
  - cbn [forallb] in Hd. apply andb_true_iff in Hd as [Hc Hd].
    cbn [app read_num_loop]. rewrite Hc, val_from_cons, len_cons.
    pose proof (val_from_ge ds (acc * 10 + (c - 48))) as G.
    destruct (limit <? acc * 10 + (c - 48)) eqn:E1; [case_if; [lia|reflexivity]|].
    destruct ((0 <? maxd) && (maxd <? cnt + 1)) eqn:E2; [case_if; [lia|reflexivity]|].
    rewrite IH by (assumption || lia). replace (cnt + 1 + len ds) with (cnt + (1 + len ds)) by lia. reflexivity.
Qed.

Definition numeralb (maxlen : N) (strict : bool) (limit : N) (ds : str) (v : N) : bool :=
  forallb is_digit ds && negb (is_nil ds) && ((maxlen =? 0) || (len ds <=? maxlen))
  && (negb strict || negb (lead0 ds) || (len ds =? 1)) && (val_from 0 ds =? v) && (v <=? limit).

Lemma numeralb_inv ml st lim d v : numeralb ml st lim d v = true ->
  forallb is_digit d = true /\ d <> [] /\ val_from 0 d = v /\ v <= lim.
Proof.
  unfold numeralb. intro H. repeat (apply andb_true_iff in H as [H ?]).
  repeat split; [assumption|intros ->; discriminate|lia..].
Qed.

Lemma read_number_app ds rest limit maxd allow : forallb is_digit ds = true -> stops rest = true ->
  read_number (ds ++ rest) limit maxd allow =
  if numeralb maxd (negb allow) limit ds (val_from 0 ds) then Some (val_from 0 ds, rest) else None.
Proof.
  intros Hd Hs. unfold read_number, numeralb. rewrite loop_app, Hd, N.eqb_refl by (assumption || lia).
  (* what is left compares two ways of writing the same boolean conditions *)
  destruct ds as [|c ds']; [case_if; reflexivity|]. cbn [app is_nil]. rewrite !lead0_cons, N.add_0_l.
  (* the count is not 0, so "more than one digit" is "not exactly one" *)
  generalize (len_cons c ds'). generalize (len (c :: ds')). intros n L.
  destruct (val_from 0 (c :: ds') <=? limit); [|rewrite andb_false_r; reflexivity].
  destruct ((maxd =? 0) || (n <=? maxd)); [|reflexivity]. cbn [andb].
  replace (n =? 0) with false by lia. replace (1 <? n) with (negb (n =? 1)) by lia.
  destruct allow, (c =? 48), (n =? 1); reflexivity.
Qed.

Lemma read_number_iff s limit maxd allow v rest :
  read_number s limit maxd allow = Some (v, rest) <->
  exists ds, s = ds ++ rest /\ stops rest = true /\ numeralb maxd (negb allow) limit ds v = true.
Proof.
  split.
  - destruct (digit_span s) as (ds & r & -> & Hd & Hs). rewrite read_number_app by assumption.
    case_if; intro H; inv H. eauto.
  - intros (ds & -> & Hs & H). destruct (numeralb_inv _ _ _ _ _ H) as (Hd & _ & <- & _).
    rewrite read_number_app, H by assumption. reflexivity.
Qed.

Lemma read_char_iff c s r : read_char c s = Some r <-> s = c :: r.
Proof.
  unfold read_char. destruct s as [|x s']; [split; discriminate|].
  destruct (N.eqb_spec x c) as [->|E]; split; intro H; inv H; [reflexivity..|destruct (E eq_refl)].
Qed.

Definition Rendering (s : str) (a : addr4) : Prop :=
  exists d1 d2 d3 d4 d5,
    s = d1 ++ 46 :: d2 ++ 46 :: d3 ++ 46 :: d4 ++ 58 :: d5
    /\ numeralb 3 true 255 d1 (a1 a) = true /\ numeralb 3 true 255 d2 (a2 a) = true
    /\ numeralb 3 true 255 d3 (a3 a) = true /\ numeralb 3 true 255 d4 (a4 a) = true
    /\ numeralb 0 false 65535 d5 (aport a) = true.
Definition RenderingIp (s : str) (o : N * N * N * N) : Prop :=
  exists d1 d2 d3 d4,
    s = d1 ++ 46 :: d2 ++ 46 :: d3 ++ 46 :: d4
    /\ numeralb 3 true 255 d1 (fst (fst (fst o))) = true /\ numeralb 3 true 255 d2 (snd (fst (fst o))) = true
    /\ numeralb 3 true 255 d3 (snd (fst o)) = true /\ numeralb 3 true 255 d4 (snd o) = true.

Lemma read_ip4_iff s o1 o2 o3 o4 rest :
  read_ip4 s = Some (o1, o2, o3, o4, rest) <->
  stops rest = true /\ exists t, s = t ++ rest /\ RenderingIp t (o1, o2, o3, o4).
Proof.
  unfold read_ip4, read_octet, RenderingIp. cbn [fst snd]. split.
  - destruct (read_number s 255 3 false) as [[x1 s1]|] eqn:E1; [|discriminate].
    destruct (read_char 46 s1) as [s1'|] eqn:C1; [|discriminate].
    destruct (read_number s1' 255 3 false) as [[x2 s2]|] eqn:E2; [|discriminate].
    destruct (read_char 46 s2) as [s2'|] eqn:C2; [|discriminate].
    destruct (read_number s2' 255 3 false) as [[x3 s3]|] eqn:E3; [|discriminate].
    destruct (read_char 46 s3) as [s3'|] eqn:C3; [|discriminate].
    destruct (read_number s3' 255 3 false) as [[x4 s4]|] eqn:E4; [|discriminate].
    intro H; inv H.
    apply read_number_iff in E1 as (d1 & -> & _ & N1), E2 as (d2 & -> & _ & N2),
                               E3 as (d3 & -> & _ & N3), E4 as (d4 & -> & S4 & N4).
    apply read_char_iff in C1, C2, C3. subst.
    split; [exact S4|]. exists (d1 ++ 46 :: d2 ++ 46 :: d3 ++ 46 :: d4).
    split; [repeat (rewrite <- app_assoc; cbn [app]); reflexivity|]. exists d1, d2, d3, d4. repeat split; assumption.
  - intros (Hs & t & -> & d1 & d2 & d3 & d4 & -> & N1 & N2 & N3 & N4).
    repeat (rewrite <- app_assoc; cbn [app]).
    assert (R : forall d v r, numeralb 3 true 255 d v = true -> stops r = true ->
                              read_number (d ++ r) 255 3 false = Some (v, r)).
    { intros d v r Hn Hr. apply read_number_iff. eauto. }
    rewrite (R d1 o1) by (assumption || reflexivity). cbn [read_char]. rewrite N.eqb_refl.
    rewrite (R d2 o2) by (assumption || reflexivity). cbn [read_char]. rewrite N.eqb_refl.
    rewrite (R d3 o3) by (assumption || reflexivity). cbn [read_char]. rewrite N.eqb_refl.
    rewrite (R d4 o4) by assumption. reflexivity.
Qed.

Lemma Rendering_iff s a : Rendering s a <->
  exists t d5, s = t ++ 58 :: d5 /\ RenderingIp t (a1 a, a2 a, a3 a, a4 a) /\ numeralb 0 false 65535 d5 (aport a) = true.
Proof.
  unfold Rendering, RenderingIp. cbn [fst snd]. split.
  - intros (d1 & d2 & d3 & d4 & d5 & -> & N1 & N2 & N3 & N4 & N5).
    exists (d1 ++ 46 :: d2 ++ 46 :: d3 ++ 46 :: d4), d5.
    split; [repeat (rewrite <- app_assoc; cbn [app]); reflexivity|]. split; [|exact N5].
    exists d1, d2, d3, d4. repeat split; assumption.
  - intros (t & d5 & -> & (d1 & d2 & d3 & d4 & -> & N1 & N2 & N3 & N4) & N5).
    exists d1, d2, d3, d4, d5. split; [repeat (rewrite <- app_assoc; cbn [app]); reflexivity|]. repeat split; assumption.
Qed.

Lemma read_sock4_iff s a rest :
  read_sock4 s = Some (a, rest) <-> stops rest = true /\ exists t, s = t ++ rest /\ Rendering t a.
Proof.
  unfold read_sock4. split.
  - destruct (read_ip4 s) as [[[[[o1 o2] o3] o4] s4]|] eqn:E; [|discriminate].
    destruct (read_char 58 s4) as [s5|] eqn:C; [|discriminate].
    destruct (read_number s5 65535 0 true) as [[p r]|] eqn:P; [|discriminate].
    intro H; inv H. apply read_ip4_iff in E as (_ & t & -> & R).
    apply read_char_iff in C as ->. apply read_number_iff in P as (d5 & -> & Hs & N5).
    split; [exact Hs|]. exists (t ++ 58 :: d5). split; [rewrite <- app_assoc; reflexivity|].
    apply Rendering_iff. exists t, d5. auto.
  - intros (Hs & ? & -> & R). apply Rendering_iff in R as (t & d5 & -> & R & N5).
    destruct a as [o1 o2 o3 o4 p]. cbn [a1 a2 a3 a4 aport] in *. rewrite <- app_assoc. cbn [app].
    rewrite (proj2 (read_ip4_iff _ o1 o2 o3 o4 (58 :: d5 ++ rest))) by (split; [reflexivity|eauto]).
    cbn [read_char]. rewrite N.eqb_refl, (proj2 (read_number_iff _ _ _ _ p rest)) by eauto. reflexivity.
Qed.

(* a parser that wants the whole input accepts the renderings themselves *)
Lemma whole_input (P : str -> Prop) s : (stops [] = true /\ exists t, s = t ++ [] /\ P t) <-> P s.
Proof.
  split; [intros (_ & t & -> & H); rewrite app_nil_r; exact H|].
  intro H. split; [reflexivity|]. exists s. rewrite app_nil_r. auto.
Qed.

Lemma parse4_iff s a : parse4 s = Some a <-> Rendering s a.
Proof.
  rewrite <- (whole_input (fun t => Rendering t a)), <- read_sock4_iff. unfold parse4.
  destruct (read_sock4 s) as [[b [|]]|]; split; intro H; inv H; reflexivity.
Qed.

Lemma parse_ip4_iff s o : parse_ip4 s = Some o <-> RenderingIp s o.
Proof.
  destruct o as [[[o1 o2] o3] o4]. rewrite <- (whole_input (fun t => RenderingIp t _)), <- read_ip4_iff. unfold parse_ip4.
  destruct (read_ip4 s) as [[[[[x1 x2] x3] x4] [|]]|]; split; intro H; inv H; reflexivity.
Qed.

Lemma parse4_wf s a : parse4 s = Some a -> wf4 a.
Proof.
  intro H. apply parse4_iff in H as (d1 & d2 & d3 & d4 & d5 & _ & N1 & N2 & N3 & N4 & N5).
  apply numeralb_inv in N1, N2, N3, N4, N5. unfold wf4. lia.
Qed.

(* print_dec is the usual digit recursion, unrolled five times: each test of print_dec (n / 10) is
   the next test of print_dec n *)
Lemma div10_ltb n k : (n / 10 <? k) = (n <? 10 * k).
Proof. lia. Qed.
Lemma print_dec_snoc n : 10 <= n -> n < 100000 -> print_dec n = print_dec (n / 10) ++ [dig (n mod 10)].
Proof.
  intros Hlo Hhi. unfold print_dec. rewrite !div10_ltb.
  change (10 * 10) with 100. change (10 * 100) with 1000. change (10 * 1000) with 10000.
  replace (n <? 10) with false by lia. replace (n <? 10 * 10000) with true by lia.
  destruct (n <? 100); [reflexivity|]. rewrite !N.div_div by discriminate.
  destruct (n <? 1000); [reflexivity|]. destruct (n <? 10000); [reflexivity|].
  rewrite (N.mod_small (n / 10000) 10) by lia. reflexivity.
Qed.

Lemma print_dec_digits n : n < 100000 ->
  forallb is_digit (print_dec n) = true /\ val_from 0 (print_dec n) = n /\ lead0 (print_dec n) = (n =? 0).
Proof.
  induction n as [n IH] using (well_founded_induction N.lt_wf_0). intro Hn.
  destruct (N.lt_ge_cases n 10) as [H|H].
  - unfold print_dec. rewrite (proj2 (N.ltb_lt n 10) H). cbn [forallb val_from fold_left]. rewrite lead0_cons.
    unfold is_digit, dig. lia.
  - rewrite print_dec_snoc by assumption.
    (* n is 10 q + r: with the quotient and remainder as variables lia has only linear facts to go through *)
    generalize (N.div_mod' n 10), (N.mod_lt n 10). generalize (n / 10), (n mod 10). intros q r E R.
    destruct (IH q) as (D & V & L); [lia|lia|].
    unfold val_from in *. rewrite forallb_app, fold_left_app, D, V.
    destruct (print_dec q); [cbn in V; lia|].
    cbn [app forallb fold_left] in *. rewrite lead0_cons in *. unfold is_digit, dig. lia.
Qed.

Lemma print_dec_numeral ml st lim n :
  n <= lim -> n < 100000 -> (ml = 0 \/ len (print_dec n) <= ml) -> numeralb ml st lim (print_dec n) n = true.
Proof.
  intros Hl Hn Hm. destruct (print_dec_digits n Hn) as (D & V & L). unfold numeralb. rewrite D, V, L.
  destruct (N.eqb_spec n 0) as [->|]; [change (print_dec 0) with [48] in *; cbn in *; lia|].
  destruct (print_dec n); [cbn in V; lia|]. cbn [is_nil]. lia.
Qed.

Lemma print_oct n : n < 256 -> numeralb 3 true 255 (print_dec n) n = true.
Proof.
  intro H. apply print_dec_numeral; [lia|lia|right]. unfold print_dec. repeat case_if; (cbn; lia).
Qed.
Lemma print_port n : n < 65536 -> numeralb 0 false 65535 (print_dec n) n = true.
Proof. intro H. apply print_dec_numeral; lia. Qed.

(* a digit is not '+', so nothing is stripped *)
Lemma parse_u16_digit c r : is_digit c = true ->
  parse_u16 (c :: r) = match read_num_loop (c :: r) 0 0 65535 0 with Some (v, _, []) => Some v | _ => None end.
Proof.
  intro Hc. destruct c as [|p]; [reflexivity|]. repeat (destruct p as [p|p|]; try reflexivity). discriminate Hc.
Qed.
(* u16::from_str reads every port numeral that the socket parser reads *)
Lemma parse_u16_numeral d v : numeralb 0 false 65535 d v = true -> parse_u16 d = Some v.
Proof.
  intro H. destruct (numeralb_inv _ _ _ _ _ H) as (Hd & Hne & <- & Hv).
  destruct d as [|c r]; [congruence|].
  pose proof (loop_app 65535 0 (c :: r) [] 0 0 Hd eq_refl) as L. rewrite app_nil_r in L.
  cbn [forallb] in Hd. apply andb_true_iff in Hd as [Hc _].
  rewrite (parse_u16_digit c r Hc), L by lia. case_if; [reflexivity|lia].
Qed.
Lemma parse_u16_print n : n < 65536 -> parse_u16 (print_dec n) = Some n.
Proof. intro H. apply parse_u16_numeral, print_port, H. Qed.

Lemma print_ip_rendering a : wf4 a -> RenderingIp (print_ip a) (a1 a, a2 a, a3 a, a4 a).
Proof.
  intros (H1 & H2 & H3 & H4 & _).
  exists (print_dec (a1 a)), (print_dec (a2 a)), (print_dec (a3 a)), (print_dec (a4 a)).
  repeat split; apply print_oct; assumption.
Qed.
Lemma print4_rendering a : wf4 a -> Rendering (print4 a) a.
Proof.
  intro H. apply Rendering_iff. exists (print_ip a), (print_dec (aport a)).
  split; [reflexivity|]. split; [apply print_ip_rendering, H|apply print_port, H].
Qed.

Lemma parse4_print4 a : wf4 a -> parse4 (print4 a) = Some a.
Proof. intro H. apply parse4_iff, print4_rendering, H. Qed.
Lemma parse_ip4_print_ip a : wf4 a -> parse_ip4 (print_ip a) = Some (a1 a, a2 a, a3 a, a4 a).
Proof. intro H. apply parse_ip4_iff, print_ip_rendering, H. Qed.

Lemma read_sock4_print4 a rest : wf4 a -> stops rest = true -> read_sock4 (print4 a ++ rest) = Some (a, rest).
Proof. intros H Hs. apply read_sock4_iff. eauto using print4_rendering. Qed.
Lemma parse4_print4_junk a c rest : wf4 a -> is_digit c = false -> parse4 (print4 a ++ c :: rest) = None.
Proof.
  intros H Hc. unfold parse4. rewrite read_sock4_print4; [reflexivity|exact H|].
  cbn [stops]. rewrite Hc. reflexivity.
Qed.
Lemma print_ip_not_sock a : wf4 a -> parse4 (print_ip a) = None.
Proof.
  intro H. unfold parse4, read_sock4.
  rewrite (proj2 (read_ip4_iff (print_ip a) (a1 a) (a2 a) (a3 a) (a4 a) [])); [reflexivity|].
  apply (whole_input (fun t => RenderingIp t _)), print_ip_rendering, H.
Qed.

Definition is_az (c : N) : bool := (97 <=? c) && (c <=? 122).
Definition is_alpha (c : N) : bool := is_az c || ((65 <=? c) && (c <=? 90)).

Lemma dict_length : length dict = 4096%nat.
Proof. vm_compute. reflexivity. Qed.

Lemma str_eqb_iff : forall a b, str_eqb a b = true <-> a = b.
Proof. apply (list_eqb_eq N.eqb); [exact N.eqb_eq|intros [|? ?] [|? ?]; reflexivity]. Qed.
Lemma str_eqb_refl a : str_eqb a a = true.
Proof. apply str_eqb_iff. reflexivity. Qed.

(* The table is checked by evaluation: every entry is a non-empty a-z word, and no word occurs
   twice.  Distinctness goes through a binary trie over a numeric key of each word, which keeps the
   check linear in the table (comparing each word with all earlier ones is quadratic, and the
   kernel's evaluator pays for every step).  Never let a tactic head-normalise a hypothesis that
   mentions the whole table ([discriminate], [easy], [apply ... in] on a conjunction of such facts):
   it evaluates the table again. *)
Fixpoint distinct (ks : list positive) (seen : PositiveSet.t) : bool :=
  match ks with
  | [] => true
  | k :: r => negb (PositiveSet.mem k seen) && distinct r (PositiveSet.add k seen)
  end.
Lemma distinct_NoDup ks : forall seen, distinct ks seen = true ->
  NoDup ks /\ forall k, In k ks -> PositiveSet.mem k seen = false.
Proof.
  induction ks as [|k ks IH]; intros seen H; cbn [distinct] in H; [split; [constructor|intros k []]|].
  apply andb_true_iff in H as [Hk H]. apply negb_true_iff in Hk. destruct (IH _ H) as [ND Fresh]. split.
  - constructor; [|exact ND]. intro Hin. apply Fresh in Hin.
    rewrite (PositiveSet.add_1 seen eq_refl) in Hin. discriminate.
  - intros k' [<-|Hin]; [exact Hk|]. apply Fresh in Hin.
    destruct (PositiveSet.mem k' seen) eqn:M; [|reflexivity]. rewrite (PositiveSet.add_2 k M) in Hin. discriminate.
Qed.

(* any function of the word will do as its key, as long as the keys come out distinct: this one
   strings the bits of the characters together *)
Definition key (w : str) : positive :=
  fold_right (fun c k => match c with Npos p => PositiveSet.rev_append p k | N0 => k end) 1%positive w.
(* [is_az] by looking the character up in a set, which takes the checker half the steps of the two
   comparisons *)
Definition az_set : PositiveSet.t :=
  Eval vm_compute in fold_right PositiveSet.add PositiveSet.empty (map Pos.of_nat (seq 97 26)).
Definition az_fast (c : N) : bool := match c with Npos p => PositiveSet.mem p az_set | N0 => false end.
Lemma az_fast_sound c : az_fast c = true -> is_az c = true.
Proof.
  destruct c as [|p]; [discriminate|].
  apply (PositiveSet.for_all_2 (f := fun p => is_az (Npos p))); [congruence|vm_compute; reflexivity].
Qed.
Lemma dict_az : forallb (fun w => negb (is_nil w) && forallb az_fast w) dict = true.
Proof. vm_compute. reflexivity. Qed.
Lemma dict_distinct : distinct (map key dict) PositiveSet.empty = true.
Proof. vm_compute. reflexivity. Qed.

(* [buckets] against the table, in one pass: the words with first letter c, in table order and
   with their indices, are what bucket c begins with.  The bucket just used goes to the front, so
   that a run of words with the same first letter finds it at once. *)
Fixpoint pop (c : N) (bs : list (N * list (str * N)))
  : option (str * N * list (str * N) * list (N * list (str * N))) :=
  match bs with
  | [] => None
  | (k, b) :: r =>
      if k =? c then match b with [] => None | e :: b' => Some (e, b', r) end
      else match pop c r with Some (e, b', r') => Some (e, b', (k, b) :: r') | None => None end
  end.
Fixpoint walk (d : list str) (i : N) (bs : list (N * list (str * N))) : bool :=
  match d with
  | [] => true
  | w :: r =>
      match w with
      | [] => false
      | c :: _ => match pop c bs with
                  | Some ((x, j), b', bs') => str_eqb x w && (j =? i) && walk r (i + 1) ((c, b') :: bs')
                  | None => false
                  end
      end
  end.
Lemma walk_buckets : walk dict 0 buckets = true.
Proof. vm_compute. reflexivity. Qed.

Definition starts (c : N) (e : str * N) : bool := match fst e with x :: _ => x =? c | [] => false end.

Lemma pop_spec c bs : forall e b' bs', pop c bs = Some (e, b', bs') ->
  find_bucket c bs = e :: b' /\ forall c', c <> c' -> find_bucket c' bs = find_bucket c' bs'.
Proof.
  induction bs as [|[k b] r IH]; intros e b' bs' H; cbn [pop] in H; [discriminate|].
  cbn [find_bucket]. destruct (N.eqb_spec k c) as [->|Hk].
  - destruct b as [|e0 b0]; inv H. split; [reflexivity|].
    intros c' Hc. apply N.eqb_neq in Hc. rewrite Hc. reflexivity.
  - destruct (pop c r) as [[[e0 b0] r']|]; inv H. destruct (IH _ _ _ eq_refl) as [A B]. split; [exact A|].
    intros c' Hc. cbn [find_bucket]. destruct (k =? c'); [reflexivity|apply B, Hc].
Qed.

Lemma walk_sound d : forall i bs, walk d i bs = true ->
  forall c, exists rest, find_bucket c bs = filter (starts c) (combine d (nrange_from i (length d))) ++ rest.
Proof.
  induction d as [|w r IH]; intros i bs H c; cbn [walk] in H; [exists (find_bucket c bs); reflexivity|].
  destruct w as [|c0 w']; [discriminate|]. destruct (pop c0 bs) as [[[[x j] b'] bs']|] eqn:Hp; [|discriminate].
  apply andb_true_iff in H as [H Hw]. apply andb_true_iff in H as [Hx Hj].
  apply str_eqb_iff in Hx. apply N.eqb_eq in Hj. subst x j.
  destruct (IH _ _ Hw c) as [rest E], (pop_spec _ _ _ _ _ Hp) as [Hhd Hoth]. exists rest.
  cbn [length nrange_from combine filter starts fst]. cbn [find_bucket] in E. destruct (N.eqb_spec c0 c) as [->|Hne].
  - rewrite Hhd, E. reflexivity.
  - rewrite (Hoth c Hne). exact E.
Qed.

Lemma In_indexed (d : list (list N)) : forall i k, (k < length d)%nat ->
  In (nth k d [], i + N.of_nat k) (combine d (nrange_from i (length d))).
Proof.
  induction d as [|x d IH]; intros i [|k] H; cbn [length nth nrange_from combine In] in *; try lia.
  - left. f_equal. lia.
  - right. replace (i + N.of_nat (S k)) with (i + 1 + N.of_nat k) by lia. apply IH. lia.
Qed.
Lemma fst_indexed (d : list (list N)) : forall i, map fst (combine d (nrange_from i (length d))) = d.
Proof. induction d as [|x d IH]; intro i; cbn [length nrange_from combine map fst]; [|rewrite IH]; reflexivity. Qed.

Lemma assoc_filter P l rest w i : NoDup (map fst l) -> In (w, i) l -> P (w, i) = true ->
  assoc_str w (filter P l ++ rest) = Some i.
Proof.
  induction l as [|[x j] l IH]; cbn [map fst filter In]; intros ND Hin HP; [contradiction|].
  inversion ND as [|? ? Hx ND']; subst. destruct Hin as [E|Hin].
  - inv E. rewrite HP. cbn [app assoc_str]. rewrite str_eqb_refl. reflexivity.
  - destruct (P (x, j)); [|auto]. cbn [app assoc_str]. destruct (str_eqb x w) eqn:E; [|auto].
    apply str_eqb_iff in E. subst x. exfalso. apply Hx. change w with (fst (w, i)). apply in_map, Hin.
Qed.

Lemma lower_az w : forallb is_az w = true -> lower w = w.
Proof.
  induction w as [|c w IH]; cbn [forallb lower flat_map]; [reflexivity|]. intro H.
  apply andb_true_iff in H as [Hc Hw]. fold (lower w). rewrite (IH Hw). unfold lower_cp, is_az in *.
  replace ((65 <=? c) && (c <=? 90)) with false by lia. replace (c =? 8490) with false by lia.
  replace (c =? 304) with false by lia. reflexivity.
Qed.

Lemma dict_wf : NoDup dict /\ forall w, In w dict -> w <> [] /\ forallb is_az w = true.
Proof.
  split.
  - apply (NoDup_map_inv key), (distinct_NoDup _ _ dict_distinct).
  - intros w Hw. pose proof (proj1 (forallb_forall _ _) dict_az w Hw) as H.
    apply andb_true_iff in H as [Hne Haz]. split; [intros ->; discriminate Hne|].
    revert Haz. apply forallb_impl, az_fast_sound.
Qed.

Lemma word_facts i : i < CRATE_BASE ->
  word i <> [] /\ forallb is_az (word i) = true /\ lower (word i) = word i /\ get_index (word i) = Some i.
Proof.
  intro Hi. unfold word. destruct dict_wf as [ND Haz].
  assert (Hk : (N.to_nat i < length dict)%nat) by (rewrite dict_length; unfold CRATE_BASE in Hi; lia).
  destruct (Haz _ (nth_In dict [] Hk)) as [Hne Hw].
  pose proof (In_indexed dict 0 _ Hk) as Hin. rewrite N2Nat.id, N.add_0_l in Hin.
  repeat split; [exact Hne|exact Hw|apply lower_az, Hw|].
  unfold get_index. rewrite (lower_az _ Hw). revert Hin. destruct (nth (N.to_nat i) dict []) as [|c w]; [congruence|]. intro Hin.
  destruct (walk_sound _ _ _ walk_buckets c) as [rest ->].
  apply assoc_filter; [rewrite fst_indexed; exact ND|exact Hin|apply N.eqb_refl].
Qed.

Lemma word_injective i j : i < CRATE_BASE -> j < CRATE_BASE -> word i = word j -> i = j.
Proof.
  intros Hi Hj E. pose proof (word_facts i Hi) as (_ & _ & _ & Gi). pose proof (word_facts j Hj) as (_ & _ & _ & Gj).
  rewrite E in Gi. congruence.
Qed.

Lemma get_index_lower w w' : lower w = lower w' -> get_index w = get_index w'.
Proof. unfold get_index. intros ->. reflexivity. Qed.
Lemma get_index_variant w i : i < CRATE_BASE -> lower w = word i -> get_index w = Some i.
Proof.
  intros Hi E. pose proof (word_facts i Hi) as (_ & _ & L & G).
  rewrite <- G. apply get_index_lower. rewrite L. exact E.
Qed.

Lemma split_on_nosep p w : forallb (fun c => negb (p c)) w = true -> split_on p w = [w].
Proof.
  induction w as [|x w IH]; cbn [forallb split_on]; [reflexivity|].
  intro H. apply andb_true_iff in H as [Hx Hw]. apply negb_true_iff in Hx. rewrite Hx, (IH Hw). reflexivity.
Qed.
Lemma split_on_app p w c rest : forallb (fun c => negb (p c)) w = true -> p c = true ->
  split_on p (w ++ c :: rest) = w :: split_on p rest.
Proof.
  intros Hw Hc. induction w as [|x w IH]; cbn [app split_on].
  - rewrite Hc. reflexivity.
  - cbn [forallb] in Hw. apply andb_true_iff in Hw as [Hx Hw]. apply negb_true_iff in Hx.
    rewrite Hx, (IH Hw). reflexivity.
Qed.

Lemma join_cons sep w x r : join sep (w :: x :: r) = w ++ sep :: join sep (x :: r).
Proof. reflexivity. Qed.

Lemma split_join p sep ws : p sep = true -> Forall (fun w => forallb (fun c => negb (p c)) w = true) ws ->
  ws <> [] -> split_on p (join sep ws) = ws.
Proof.
  intros Hp H. induction H as [|w [|x r] Hw _ IH]; intro Hne; [congruence|apply split_on_nosep, Hw|].
  rewrite join_cons, (split_on_app p w sep _ Hw Hp). f_equal. apply IH. discriminate.
Qed.

Lemma replace_char_app a b s t : replace_char a b (s ++ t) = replace_char a b s ++ replace_char a b t.
Proof. apply map_app. Qed.
Lemma replace_char_cons a b x s : replace_char a b (x :: s) = (if x =? a then b else x) :: replace_char a b s.
Proof. reflexivity. Qed.
Lemma replace_char_id a b w : forallb (fun c => negb (a =? c)) w = true -> replace_char a b w = w.
Proof.
  induction w as [|x w IH]; cbn [forallb]; [reflexivity|].
  intro H. apply andb_true_iff in H as [Hx Hw]. apply negb_true_iff in Hx.
  rewrite replace_char_cons, N.eqb_sym, Hx, (IH Hw). reflexivity.
Qed.
Lemma replace_join a b ws : Forall (fun w => forallb (fun c => negb (a =? c)) w = true) ws ->
  replace_char a b (join a ws) = join b ws.
Proof.
  induction 1 as [|w [|x r] Hw _ IH]; [reflexivity|apply replace_char_id, Hw|].
  rewrite !join_cons, replace_char_app, replace_char_cons, N.eqb_refl, (replace_char_id _ _ _ Hw).
  do 2 f_equal. exact IH.
Qed.

Lemma nonempty_id ws : Forall (fun w => w <> []) ws -> nonempty ws = ws.
Proof.
  induction 1 as [|[|c w] ws Hw _ IH]; [reflexivity|congruence|].
  cbn [nonempty filter is_nil negb]. f_equal. exact IH.
Qed.

Lemma contains_false c s : forallb (fun x => negb (c =? x)) s = true -> contains c s = false.
Proof.
  induction s as [|x s IH]; cbn [forallb contains existsb]; [reflexivity|].
  intro H. apply andb_true_iff in H as [Hx Hs]. apply negb_true_iff in Hx. rewrite Hx. apply IH, Hs.
Qed.

Lemma avoid (q p : N -> bool) s : (forall x, q x = true -> p x = false) -> forallb q s = true ->
  forallb (fun c => negb (p c)) s = true.
Proof. intro H. apply forallb_impl. intros x Hx. rewrite (H x Hx). reflexivity. Qed.
Lemma not_in_class (q : N -> bool) c : q c = false -> forall x, q x = true -> (c =? x) = false.
Proof. intros Hc x Hx. apply N.eqb_neq. intros ->. congruence. Qed.
Lemma class_avoids (q : N -> bool) s c : forallb q s = true -> q c = false -> contains c s = false.
Proof. intros H Hc. apply contains_false, (avoid q); [exact (not_in_class q c Hc)|exact H]. Qed.

Definition wordlike (w : str) : Prop := w <> [] /\ forallb is_alpha w = true.
Lemma alpha_not_ws x : is_alpha x = true -> is_ws x = false.
Proof. unfold is_alpha, is_az, is_ws. lia. Qed.
Lemma wordlike_avoids p w : (forall x, is_alpha x = true -> p x = false) -> wordlike w ->
  forallb (fun c => negb (p c)) w = true.
Proof. intros Hp [_ H]. exact (avoid _ _ _ Hp H). Qed.
Lemma words_avoid c ws : is_alpha c = false -> Forall wordlike ws ->
  Forall (fun w => forallb (fun x => negb (c =? x)) w = true) ws.
Proof. intro Hc. apply Forall_impl. intro w. apply wordlike_avoids, not_in_class, Hc. Qed.

Lemma word_wordlike i : i < CRATE_BASE -> wordlike (word i).
Proof.
  intro H. destruct (word_facts i H) as (Hn & Ha & _). split; [exact Hn|].
  revert Ha. apply forallb_impl. intros x Hx. unfold is_alpha. rewrite Hx. reflexivity.
Qed.
Lemma words_wordlike ds : Forall (fun d => d < CRATE_BASE) ds -> Forall wordlike (map word ds).
Proof. intro R. apply Forall_map. revert R. apply Forall_impl, word_wordlike. Qed.
Lemma lower_words ds : Forall (fun d => d < CRATE_BASE) ds -> map lower (map word ds) = map word ds.
Proof.
  intro R. rewrite map_map. apply map_ext_Forall. revert R. apply Forall_impl.
  intros d Hd. apply (word_facts d Hd).
Qed.

Lemma indices_variants ws : forall ds, Forall (fun d => d < CRATE_BASE) ds ->
  map lower ws = map word ds -> indices ws = Some ds.
Proof.
  unfold indices. induction ws as [|w ws IH]; intros [|d ds] R E; try discriminate E; [reflexivity|].
  inversion R as [|? ? Hd R']. cbn [map] in E. injection E as E0 E. cbn [map all_some].
  rewrite (get_index_variant w d Hd E0), (IH ds R' E). reflexivity.
Qed.

Lemma crate_decode_join ws ds : Forall wordlike ws -> length ws = 4%nat -> indices ws = Some ds ->
  crate_decode (join 32 ws) =
  let a := unpack (of_digits ds) in DText (if aport a =? CRATE_OMIT_PORT then print_ip a else print4 a).
Proof.
  intros W L I.
  assert (Hne : ws <> []) by (intros ->; discriminate L).
  assert (Hsp : split_char 32 (join 32 ws) = ws).
  { apply split_join; [reflexivity|apply words_avoid; [reflexivity|exact W]|exact Hne]. }
  assert (Hws : split_on is_ws (join 32 ws) = ws).
  { apply split_join; [reflexivity|revert W; apply Forall_impl; intro w; apply wordlike_avoids, alpha_not_ws|exact Hne]. }
  assert (Hn : nonempty ws = ws) by (apply nonempty_id; revert W; apply Forall_impl; intros w Hw; apply Hw).
  assert (Hc : contains 32 (join 32 ws) = true).
  { destruct ws as [|w0 [|w1 r]]; try discriminate L.
    rewrite join_cons. unfold contains. rewrite existsb_app. cbn [existsb]. rewrite N.eqb_refl. apply orb_true_r. }
  unfold crate_decode, crate_count, crate_parts4, split_ws. rewrite Hc, Hsp, Hws, Hn.
  unfold len. rewrite L. change (N.of_nat 4 =? 4) with true. cbn iota. rewrite I. reflexivity.
Qed.

(* The codec text is "ip:port", or a bare ip standing for the marker port; the library reads both
   back.  [s] is any text that the hyphen-to-space normalisation turns into four case variants of
   the address's words. *)
Lemma from_four_words_norm a ws s : wf4 a -> Forall wordlike ws ->
  map lower ws = map word (to_digits nwords (pack a)) -> replace_char DEC_FROM DEC_TO s = join 32 ws ->
  from_four_words s = R4 a.
Proof.
  intros Ha W E N. unfold from_four_words.
  rewrite N, (crate_decode_join ws (to_digits nwords (pack a)) W).
  - cbv zeta. rewrite (words_roundtrip a Ha). destruct (aport a =? CRATE_OMIT_PORT) eqn:P.
    + rewrite (print_ip_not_sock a Ha), (parse_ip4_print_ip a Ha). apply N.eqb_eq in P.
      destruct a as [o1 o2 o3 o4 p]. cbn [a1 a2 a3 a4 aport] in *. rewrite P. reflexivity.
    + rewrite (parse4_print4 a Ha). reflexivity.
  - rewrite <- (map_length lower), E, map_length. reflexivity.
  - apply indices_variants; [apply to_digits_range|exact E].
Qed.

Lemma from_four_words_variants a w0 w1 w2 w3 s1 s2 s3 : wf4 a ->
  (s1 = 32 \/ s1 = 45) -> (s2 = 32 \/ s2 = 45) -> (s3 = 32 \/ s3 = 45) ->
  wordlike w0 -> wordlike w1 -> wordlike w2 -> wordlike w3 ->
  map lower [w0; w1; w2; w3] = map word (to_digits nwords (pack a)) ->
  from_four_words (w0 ++ s1 :: w1 ++ s2 :: w2 ++ s3 :: w3) = R4 a.
Proof.
  intros Ha S1 S2 S3 W0 W1 W2 W3 E.
  apply (from_four_words_norm a [w0; w1; w2; w3]); [exact Ha|repeat (constructor; [assumption|]); constructor|exact E|].
  repeat rewrite replace_char_app, replace_char_cons.
  rewrite !(replace_char_id DEC_FROM)
    by (apply wordlike_avoids; [apply (not_in_class is_alpha); reflexivity|assumption]).
  destruct S1 as [-> | ->], S2 as [-> | ->], S3 as [-> | ->]; reflexivity.
Qed.

Lemma words_of_join a : words_of a = join 45 (map word (to_digits nwords (pack a))).
Proof.
  apply replace_join, words_avoid; [reflexivity|].
  apply words_wordlike, to_digits_range.
Qed.

Lemma from_four_words_roundtrip a : wf4 a -> from_four_words (words_of a) = R4 a.
Proof.
  intro Ha. pose proof (to_digits_range nwords (pack a)) as R.
  apply (from_four_words_norm a (map word (to_digits nwords (pack a)))); [exact Ha|apply words_wordlike, R|apply lower_words, R|].
  rewrite words_of_join. apply replace_join, words_avoid; [reflexivity|apply words_wordlike, R].
Qed.

(* identity::WordEncoder::decode reads the same six bytes out of the rendered words *)
Lemma id_decode_words a : wf4 a -> id_decode (words_of a) = R4 a.
Proof.
  intro Ha. pose proof (to_digits_range nwords (pack a)) as R.
  unfold id_decode, split_char. rewrite words_of_join, split_join.
  - unfold len. rewrite map_length. change (N.of_nat (length (to_digits nwords (pack a))) =? 4) with true. cbn iota.
    rewrite (indices_variants _ _ R (lower_words _ R)), (words_roundtrip a Ha). reflexivity.
  - reflexivity.
  - apply words_avoid; [reflexivity|apply words_wordlike, R].
  - discriminate.
Qed.

Lemma strip_prefix_app p t : strip_prefix p (p ++ t) = Some t.
Proof. induction p as [|x p IH]; cbn [app strip_prefix]; [reflexivity|]. rewrite N.eqb_refl. exact IH. Qed.

Lemma split_once_skip c sep' h r : contains c h = false ->
  split_once (c :: sep') (h ++ r) =
  match split_once (c :: sep') r with Some (x, t) => Some (h ++ x, t) | None => None end.
Proof.
  induction h as [|x h IH]; intro H; [cbn [app]; destruct (split_once (c :: sep') r) as [[? ?]|]; reflexivity|].
  cbn [contains existsb] in H. apply orb_false_iff in H as [Hx Hh].
  cbn [app split_once strip_prefix]. rewrite Hx, (IH Hh).
  destruct (split_once (c :: sep') r) as [[? ?]|]; reflexivity.
Qed.
Lemma split_once_found c sep' h t : contains c h = false ->
  split_once (c :: sep') (h ++ (c :: sep') ++ t) = Some (h, t).
Proof.
  intro H. rewrite (split_once_skip c sep' h _ H). cbn [app split_once strip_prefix].
  rewrite N.eqb_refl, strip_prefix_app, app_nil_r. reflexivity.
Qed.
Lemma split_once_none c sep' s : contains c s = false -> split_once (c :: sep') s = None.
Proof. intro H. rewrite <- (app_nil_r s), (split_once_skip c sep' s [] H). reflexivity. Qed.

(* Display's infix, the separator FromStr cuts at and the separators of the two consumers, each re-read
   from its own place in the sources, are one string: " (" *)
Lemma display_infix_eq : display_infix = [32; 40].
Proof. reflexivity. Qed.
Lemma fromstr_sep_eq : fromstr_sep = display_infix.
Proof. reflexivity. Qed.
Lemma dnm_sep_dial_eq : dnm_sep_dial = display_infix.
Proof. reflexivity. Qed.
Lemma dnm_sep_multiaddr_eq : dnm_sep_multiaddr = display_infix.
Proof. reflexivity. Qed.

Lemma split_once_infix p r : contains 32 p = false -> split_once display_infix (p ++ display_infix ++ r) = Some (p, r).
Proof. rewrite display_infix_eq. apply split_once_found. Qed.
Lemma split_once_infix_none s : contains 32 s = false -> split_once display_infix s = None.
Proof. rewrite display_infix_eq. apply split_once_none. Qed.
Lemma before_first_infix p r : contains 32 p = false -> before_first display_infix (p ++ display_infix ++ r) = p.
Proof. intro H. unfold before_first. rewrite (split_once_infix p r H). reflexivity. Qed.

Definition is_sockch (c : N) : bool := is_digit c || (c =? 46) || (c =? 58).
Lemma numeral_sockch ml st lim d v : numeralb ml st lim d v = true -> forallb is_sockch d = true.
Proof.
  intro H. apply numeralb_inv in H as [H _]. revert H. apply forallb_impl.
  intros x Hx. unfold is_sockch. rewrite Hx. reflexivity.
Qed.
Lemma rendering_sockch s a : Rendering s a -> forallb is_sockch s = true.
Proof.
  intros (d1 & d2 & d3 & d4 & d5 & -> & N1 & N2 & N3 & N4 & N5).
  apply numeral_sockch in N1, N2, N3, N4, N5.
  repeat (rewrite forallb_app; cbn [forallb]). rewrite N1, N2, N3, N4, N5. reflexivity.
Qed.
Lemma print4_sockch a : wf4 a ->
  forallb is_sockch (print_ip a) = true /\ forallb is_sockch (print_dec (aport a)) = true.
Proof.
  intro H. pose proof (rendering_sockch _ _ (print4_rendering a H)) as S.
  unfold print4 in S. rewrite forallb_app in S. apply andb_true_iff in S. exact S.
Qed.
Lemma v4_no_space a : wf4 a -> contains 32 (print4 a) = false.
Proof. intro H. apply (class_avoids is_sockch); [apply (rendering_sockch _ a), print4_rendering, H|reflexivity]. Qed.

Lemma print_ip_head a : wf4 a -> exists c r, print_ip a = c :: r /\ is_digit c = true.
Proof.
  intros (H1 & _). destruct (numeralb_inv _ _ _ _ _ (print_oct _ H1)) as (Hd & Hn & _).
  unfold print_ip. destruct (print_dec (a1 a)) as [|c r]; [congruence|].
  cbn [forallb] in Hd. apply andb_true_iff in Hd as [Hc _]. exists c. eexists. split; [reflexivity|exact Hc].
Qed.

Lemma parse4_nondigit c r : is_digit c = false -> parse4 (c :: r) = None.
Proof.
  intro H. unfold parse4, read_sock4, read_ip4, read_octet, read_number. cbn [read_num_loop]. rewrite H. reflexivity.
Qed.
(* SocketAddr::from_str takes the IPv6 branch exactly on '[' *)
Lemma parse_sock_eq s :
  parse_sock s = if hd 0 s =? 91 then ROracle else match parse4 s with Some a => R4 a | None => RNone end.
Proof. destruct s as [|[|p] r]; try reflexivity. repeat (destruct p as [p|p|]; try reflexivity). Qed.
Lemma parse_sock_R4 s a : parse_sock s = R4 a <-> parse4 s = Some a.
Proof.
  rewrite parse_sock_eq. destruct (N.eqb_spec (hd 0 s) 91) as [E|_].
  - destruct s as [|c r]; [discriminate E|]. cbn [hd] in E. rewrite E, parse4_nondigit by reflexivity. split; discriminate.
  - destruct (parse4 s); split; congruence.
Qed.
Lemma parse_sock_print4 a : wf4 a -> parse_sock (print4 a) = R4 a.
Proof. intro H. apply parse_sock_R4, parse4_print4, H. Qed.
Lemma parse_sock_print4_junk a c rest : wf4 a -> is_digit c = false -> parse_sock (print4 a ++ c :: rest) = RNone.
Proof.
  intros H Hc. destruct (print_ip_head a H) as (x & t & E & Hx).
  rewrite parse_sock_eq, (parse4_print4_junk a c rest H Hc). unfold print4. rewrite E. cbn [app hd].
  replace (x =? 91) with false by (unfold is_digit in Hx; lia). reflexivity.
Qed.

(* Display and FromStr over any address family: a text printer/parser pair and rendered words.  The
   section is there for the IPv6 side, whose printer and parser are oracles: it is an instance under the
   three hypotheses.  The IPv4 lemmas after the section do not instantiate it (their side condition [wf4]
   would make the carrier a subset type); they use its two steps that need no hypothesis,
   [before_first_infix] and [from_str_head_infix]. *)
Section Family.
  Variable A : Type.
  Variable prt : A -> str.
  Variable prs : str -> res.
  Variable inj : A -> res.
  Variable wrd : A -> str.
  Hypothesis prs_prt : forall a, prs (prt a) = inj a.
  Hypothesis prt_no_space : forall a, contains 32 (prt a) = false.
  Hypothesis prs_rejects_suffix : forall a r, prs (prt a ++ 32 :: r) = RNone.

  Definition display_g (a : A) : str := prt a ++ display_infix ++ wrd a ++ display_suffix.
  (* the first two alternatives of FromStr *)
  Definition from_str_head_g (s : str) : res :=
    orelse (prs s) (match split_once fromstr_sep s with
                    | Some (h, t) => if ends_with t fromstr_close then prs h else RNone
                    | None => RNone end).

  Lemma from_str_head_infix p w : contains 32 p = false -> prs (p ++ display_infix ++ w ++ display_suffix) = RNone ->
    from_str_head_g (p ++ display_infix ++ w ++ display_suffix) = prs p.
  Proof.
    intros Hp Hr. unfold from_str_head_g. rewrite Hr. cbn [orelse]. rewrite fromstr_sep_eq, (split_once_infix p _ Hp).
    replace (ends_with (w ++ display_suffix) fromstr_close) with true; [reflexivity|].
    unfold ends_with. rewrite rev_app_distr. reflexivity.
  Qed.

  Lemma display_fromstr_g a : inj a <> RNone -> from_str_head_g (display_g a) = inj a.
  Proof.
    intros _. unfold display_g. rewrite from_str_head_infix; [apply prs_prt|apply prt_no_space|].
    rewrite display_infix_eq. apply prs_rejects_suffix.
  Qed.

  Lemma consumer_strip_g a : prs (before_first dnm_sep_dial (display_g a)) = inj a
                             /\ prs (before_first dnm_sep_multiaddr (display_g a)) = inj a.
  Proof.
    rewrite dnm_sep_dial_eq, dnm_sep_multiaddr_eq. unfold display_g.
    rewrite before_first_infix by apply prt_no_space. split; apply prs_prt.
  Qed.
End Family.

(* the carrier on which IPv4 meets the three hypotheses (C19_example_family_v4) *)
Definition wf_addr := { a : addr4 | wf4 a }.

Lemma display_is_g a : display a = display_g addr4 print4 words_of a.
Proof. reflexivity. Qed.

Lemma before_first_display a : wf4 a -> before_first display_infix (display a) = print4 a.
Proof. intro H. apply before_first_infix, v4_no_space, H. Qed.

Lemma from_str_head s a : from_str_head_g parse_sock s = R4 a -> from_str s = R4 a.
Proof.
  unfold from_str. change (from_str_head_g parse_sock s) with (orelse (parse_sock s) (from_str_display s)).
  destruct (parse_sock s); cbn [orelse]; [intros ->; reflexivity|exact (fun H => H)|discriminate].
Qed.

Lemma from_str_of_display a : wf4 a -> from_str (display a) = R4 a.
Proof.
  intro H. apply from_str_head. unfold display.
  rewrite from_str_head_infix; [apply parse_sock_print4, H|apply v4_no_space, H|].
  rewrite display_infix_eq. apply parse_sock_print4_junk; [exact H|reflexivity].
Qed.

Lemma consumer_strip_display a : wf4 a ->
  consumer_strip dnm_sep_dial (display a) = R4 a /\ consumer_strip dnm_sep_multiaddr (display a) = R4 a.
Proof.
  intro H. unfold consumer_strip.
  rewrite dnm_sep_dial_eq, dnm_sep_multiaddr_eq, (before_first_display a H), (parse_sock_print4 a H). split; reflexivity.
Qed.

Lemma add_node_ip_display a : wf4 a -> add_node_ip (display a) = Some (a1 a, a2 a, a3 a, a4 a).
Proof.
  intro H. unfold add_node_ip. rewrite (before_first_display a H), (parse4_print4 a H). reflexivity.
Qed.
Lemma add_node_ip_plain a : wf4 a ->
  add_node_ip (print4 a) = Some (a1 a, a2 a, a3 a, a4 a) /\ add_node_ip (print_ip a) = Some (a1 a, a2 a, a3 a, a4 a).
Proof.
  intro H. unfold add_node_ip, before_first.
  rewrite (split_once_infix_none (print4 a) (v4_no_space a H)).
  rewrite (split_once_infix_none (print_ip a) (class_avoids _ _ 32 (proj1 (print4_sockch a H)) eq_refl)).
  rewrite (parse4_print4 a H), (print_ip_not_sock a H), (parse_ip4_print_ip a H). split; reflexivity.
Qed.

(* the /ip4/<ip>/tcp/<port> text that multiaddr_from_address builds parses back to the address *)
Definition is_mach (c : N) : bool := is_sockch c || is_az c || (c =? 47) || (c =? 52).
Lemma sockch_mach s : forallb is_sockch s = true -> forallb is_mach s = true.
Proof. apply forallb_impl. intros x H. unfold is_mach. rewrite H. reflexivity. Qed.

Lemma from_str_multiaddr_text a : wf4 a -> from_str (multiaddr_text a) = R4 a.
Proof.
  intro H. pose proof H as (_ & _ & _ & _ & H5). destruct (print4_sockch a H) as [Sip Sp].
  assert (Nip : print_ip a <> []) by (destruct (print_ip_head a H) as (? & ? & -> & _); discriminate).
  destruct (numeralb_inv _ _ _ _ _ (print_port _ H5)) as (_ & Np & _).
  unfold from_str.
  (* neither socket text nor the library's own rendering: it starts with '/' and has no space *)
  replace (parse_sock (multiaddr_text a)) with RNone
    by (rewrite parse_sock_eq; unfold multiaddr_text; rewrite parse4_nondigit; reflexivity).
  replace (from_str_display (multiaddr_text a)) with RNone.
  2:{ unfold from_str_display. rewrite fromstr_sep_eq, split_once_infix_none; [reflexivity|].
      apply (class_avoids is_mach); [|reflexivity]. unfold multiaddr_text. cbn [s_ip4 s_tcp app forallb].
      rewrite !forallb_app. cbn [forallb]. rewrite (sockch_mach _ Sip), (sockch_mach _ Sp). reflexivity. }
  cbn [orelse]. unfold multiaddr.
  replace (is_prefix (47 :: s_ip4 ++ [47]) (multiaddr_text a)) with true by reflexivity. cbn [orb].
  change (multiaddr_text a) with (join 47 [[]; s_ip4; print_ip a; s_tcp; print_dec (aport a)]).
  unfold split_char. rewrite split_join; [|reflexivity| |discriminate].
  - change (nonempty ([] :: ?l)) with (nonempty l). rewrite nonempty_id by (repeat constructor; (assumption || discriminate)).
    rewrite !str_eqb_refl. cbn [orb andb].
    rewrite (parse_u16_print _ H5), (parse_ip4_print_ip a H). destruct a; reflexivity.
  - assert (S47 : forall x, is_sockch x = true -> (47 =? x) = false) by (apply not_in_class; reflexivity).
    repeat constructor; try reflexivity; apply (avoid is_sockch); assumption.
Qed.

Lemma multiaddr_from_address_display a : wf4 a ->
  multiaddr_from_address (display a) = if is_unspecified a then RNone else R4 a.
Proof.
  intro H. unfold multiaddr_from_address. destruct (consumer_strip_display a H) as [_ ->].
  destruct (is_unspecified a); [reflexivity|]. apply from_str_multiaddr_text, H.
Qed.

Lemma strip_agrees_with_fromstr s a b :
  orelse (parse_sock s) (from_str_display s) = R4 a -> consumer_strip [32; 40] s = R4 b -> a = b.
Proof.
  unfold consumer_strip, before_first, from_str_display. rewrite fromstr_sep_eq, display_infix_eq.
  destruct (split_once [32; 40] s) as [[h t]|] eqn:E; intros H1 H2.
  - destruct (parse_sock s) eqn:P; cbn [orelse] in H1; [destruct (ends_with t fromstr_close); congruence| |discriminate].
    (* s itself is socket text: it contains no space, so split_once cannot have succeeded *)
    apply parse_sock_R4, parse4_iff, rendering_sockch in P.
    rewrite (split_once_none 32 [40] s) in E by (apply (class_avoids _ _ _ P); reflexivity). discriminate.
  - destruct (parse_sock s); cbn [orelse] in H1; congruence.
Qed.
