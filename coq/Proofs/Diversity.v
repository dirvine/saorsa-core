(* C13.  Below the tracking bound the LRU tables never evict and are read through [cnt] alone:
   [cnt_incr], [cnt_decr].  Enforcer: the counters are the counts over the admitted nodes ([Agree]) and
   obey the limit of the largest network size so far ([CapInv]).  Routing-table pipeline: the counters
   are the tallies of the table's entries ([EInv]); a refusal leaves the table, hence every count, as
   it was. *)
From SV Require Import Lib.Base Gen.DiversityConsts Model.Diversity.
Local Open Scope N_scope.

Lemma del_cons a v t k : del ((a, v) :: t) k = if (a =? k) then del t k else (a, v) :: del t k.
Proof. unfold del. cbn [filter fst]. now destruct (a =? k). Qed.

Lemma peek_del m k k' : peek (del m k) k' = if (k =? k') then None else peek m k'.
Proof.
  induction m as [|[a v] t IH]; [now destruct (k =? k')|].
  rewrite del_cons. destruct (N.eqb_spec a k) as [->|E]; cbn [peek]; rewrite IH;
    destruct (N.eqb_spec k k') as [->|]; try reflexivity.
  now destruct (N.eqb_spec a k').
Qed.

Lemma cnt_del m k k' : cnt (del m k) k' = if (k =? k') then 0 else cnt m k'.
Proof. unfold cnt. rewrite peek_del. now destruct (k =? k'). Qed.
Lemma cnt_set m k v k' : cnt ((k, v) :: del m k) k' = if (k =? k') then v else cnt m k'.
Proof. unfold cnt. cbn [peek]. rewrite peek_del. now destruct (k =? k'). Qed.

Lemma len_del_le m k : len (del m k) <= len m.
Proof.
  induction m as [|[a v] t IH]; [reflexivity|].
  rewrite del_cons. unfold len in *. destruct (a =? k); cbn [length]; lia.
Qed.
Lemma len_del_lt m k c : peek m k = Some c -> len (del m k) < len m.
Proof.
  induction m as [|[a v] t IH]; cbn [peek]; [discriminate|].
  rewrite del_cons. pose proof (len_del_le t k). unfold len in *.
  destruct (a =? k); cbn [length]; [|intro P; specialize (IH P)]; lia.
Qed.

(* below the tracking bound a put evicts nothing *)
Lemma put_noevict track m k v : len (del m k) < track -> put track m k v = (k, v) :: del m k.
Proof.
  intro H. unfold put. destruct (N.ltb_spec track (N.of_nat (length ((k, v) :: del m k)))) as [E|]; [|reflexivity].
  unfold len in H. cbn [length] in E. lia.
Qed.

Lemma cnt_incr track m k k' :
  len m < track -> cnt (incr track m k) k' = cnt m k' + (if (k =? k') then 1 else 0).
Proof.
  intro H. pose proof (len_del_le m k). unfold incr. rewrite put_noevict, cnt_set by lia.
  destruct (N.eqb_spec k k') as [->|]; lia.
Qed.
Lemma len_incr track m k : len m < track -> len (incr track m k) <= len m + 1.
Proof.
  intro H. pose proof (len_del_le m k). unfold incr. rewrite put_noevict by lia.
  unfold len in *. cbn [length]. lia.
Qed.

Lemma cnt_decr track m k k' :
  len m <= track -> cnt (decr track m k) k' = cnt m k' - (if (k =? k') then 1 else 0).
Proof.
  intro H. unfold decr. destruct (peek m k) as [c|] eqn:P.
  - pose proof (len_del_lt _ _ _ P). assert (cnt m k = c) by (unfold cnt; now rewrite P).
    destruct (N.ltb_spec 0 (c - 1)); [rewrite put_noevict, cnt_set by lia | rewrite cnt_del];
      destruct (N.eqb_spec k k') as [<-|]; lia.
  - assert (cnt m k = 0) by (unfold cnt; now rewrite P). destruct (N.eqb_spec k k') as [<-|]; lia.
Qed.
Lemma len_decr track m k : len m <= track -> len (decr track m k) <= len m.
Proof.
  intro H. unfold decr. destruct (peek m k) as [c|] eqn:P; [|lia]. pose proof (len_del_lt _ _ _ P).
  destruct (0 <? c - 1); [rewrite put_noevict by lia; unfold len in *; cbn [length]|]; lia.
Qed.

Lemma level_eqb_spec a b : reflect (a = b) (level_eqb a b).
Proof. destruct a, b; now constructor. Qed.

Lemma getm_setm s l m l' : getm (setm s l m) l' = if level_eqb l l' then m else getm s l'.
Proof. destruct l, l'; reflexivity. Qed.
Lemma size_setm s l m : e_size (setm s l m) = e_size s.
Proof. now destruct l. Qed.

(* the key a list of counters holds at a level *)
Fixpoint key_at (ks : list (level * N)) (l : level) : option N :=
  match ks with
  | [] => None
  | (l', k) :: t => if level_eqb l' l then Some k else key_at t l
  end.

Lemma key_at_none ks l : ~ In l (map fst ks) -> key_at ks l = None.
Proof.
  induction ks as [|[l' k] t IH]; cbn; [reflexivity|]. intro H.
  destruct (level_eqb_spec l' l); [tauto | apply IH; tauto].
Qed.
Lemma key_at_in ks l k : key_at ks l = Some k -> In (l, k) ks.
Proof.
  induction ks as [|[l' k'] t IH]; cbn [key_at]; [discriminate|].
  destruct (level_eqb_spec l' l) as [->|]; [intros [= ->]; now left | right; auto].
Qed.

Lemma existsb_key_at ks l k : NoDup (map fst ks) ->
  existsb (lk_eqb (l, k)) ks = match key_at ks l with Some k' => k' =? k | None => false end.
Proof.
  induction ks as [|[l' k'] t IH]; intro ND; [reflexivity|]. inversion ND as [|? ? Hn ND']; subst.
  cbn [existsb key_at]. rewrite IH by assumption. unfold lk_eqb. cbn [fst snd].
  destruct (level_eqb_spec l' l), (level_eqb_spec l l'); try congruence; [subst l'|reflexivity].
  rewrite key_at_none, orb_false_r by assumption. apply N.eqb_sym.
Qed.

Lemma keys_levels_nodup an : NoDup (map fst (keys_of an)).
Proof.
  destruct an as [v4 k1 k2 k3 [asn country h v]]. unfold keys_of. cbn [an_v4 an_k1 an_k2 an_k3 an_at a_asn a_country].
  destruct v4, asn, country; cbn; repeat constructor; cbn; intuition discriminate.
Qed.

(* what an analysis adds to the counter of key k at level l *)
Definition hk (l : level) (k : N) (an : analysis) : N := if has_key l k an then 1 else 0.

Lemma hk_key_at l k an :
  hk l k an = match key_at (keys_of an) l with Some k' => if (k' =? k) then 1 else 0 | None => 0 end.
Proof.
  unfold hk, has_key. rewrite existsb_key_at by apply keys_levels_nodup. now destruct (key_at (keys_of an) l).
Qed.

(* add and remove update every level the analysis names, once:
   [bump c] is [upd (incr (c_track c))], [drop c] is [upd (decr (c_track c))] *)
Definition upd (f : amap -> N -> amap) (s : enf) (lk : level * N) : enf :=
  setm s (fst lk) (f (getm s (fst lk)) (snd lk)).

Lemma getm_fold_upd f ks : NoDup (map fst ks) -> forall s l,
  getm (fold_left (upd f) ks s) l = match key_at ks l with Some k => f (getm s l) k | None => getm s l end.
Proof.
  induction ks as [|[l' k'] t IH]; intros ND s l; [reflexivity|]. inversion ND as [|? ? Hn ND']; subst.
  cbn [fold_left key_at]. rewrite IH by assumption. unfold upd. cbn [fst snd]. rewrite getm_setm.
  destruct (level_eqb_spec l' l) as [->|]; [now rewrite key_at_none | reflexivity].
Qed.
Lemma size_fold_upd f ks : forall s, e_size (fold_left (upd f) ks s) = e_size s.
Proof. induction ks as [|a t IH]; intro s; [reflexivity|]. cbn [fold_left]. rewrite IH. apply size_setm. Qed.

Lemma add_some c s an s' : add c s an = Some s' ->
  can_accept c s an = true /\ s' = fold_left (bump c) (keys_of an) s.
Proof. unfold add. destruct (can_accept c s an); [intros [= <-]; auto | discriminate]. Qed.

Lemma getm_add c s an s' l : add c s an = Some s' ->
  getm s' l = match key_at (keys_of an) l with Some k => incr (c_track c) (getm s l) k | None => getm s l end.
Proof. intro H. apply add_some in H as [_ ->]. exact (getm_fold_upd (incr (c_track c)) _ (keys_levels_nodup an) s l). Qed.
Lemma getm_remove c s an l :
  getm (remove c s an) l = match key_at (keys_of an) l with Some k => decr (c_track c) (getm s l) k | None => getm s l end.
Proof. exact (getm_fold_upd (decr (c_track c)) _ (keys_levels_nodup an) s l). Qed.

Lemma size_add c s an s' : add c s an = Some s' -> e_size s' = e_size s.
Proof. intro H. apply add_some in H as [_ ->]. exact (size_fold_upd (incr (c_track c)) _ s). Qed.
Lemma size_remove c s an : e_size (remove c s an) = e_size s.
Proof. exact (size_fold_upd (decr (c_track c)) _ s). Qed.

(* the tracking tables of a state: [Bounded], room for one more key at every level, is what an [add]
   needs; it leaves them [Capped], no table over the bound, which is what a [remove] needs *)
Definition Bounded (c : cfg) (s : enf) : Prop := forall l, len (getm s l) < c_track c.
Definition Capped (c : cfg) (s : enf) : Prop := forall l, len (getm s l) <= c_track c.

Lemma bounded_capped c s : Bounded c s -> Capped c s.
Proof. intros H l. specialize (H l). lia. Qed.

Lemma cnt_add c s an s' l k : Bounded c s -> add c s an = Some s' ->
  cnt (getm s' l) k = cnt (getm s l) k + hk l k an.
Proof.
  intros B H. rewrite (getm_add _ _ _ _ l H), hk_key_at.
  destruct (key_at (keys_of an) l); [apply cnt_incr, B | lia].
Qed.
Lemma len_add c s an s' l : Bounded c s -> add c s an = Some s' -> len (getm s' l) <= len (getm s l) + 1.
Proof. intros B H. rewrite (getm_add _ _ _ _ l H). destruct (key_at (keys_of an) l); [apply len_incr, B | lia]. Qed.

Lemma cnt_remove c s an l k : Capped c s ->
  cnt (getm (remove c s an) l) k = cnt (getm s l) k - hk l k an.
Proof.
  intro C. rewrite getm_remove, hk_key_at.
  destruct (key_at (keys_of an) l); [apply cnt_decr, C | lia].
Qed.
Lemma len_remove c s an l : Capped c s -> len (getm (remove c s an) l) <= len (getm s l).
Proof. intro C. rewrite getm_remove. destruct (key_at (keys_of an) l); [apply len_decr, C | lia]. Qed.

Lemma add_capped c s an s' : Bounded c s -> add c s an = Some s' -> Capped c s'.
Proof. intros B H l. pose proof (len_add _ _ _ _ l B H). specialize (B l). lia. Qed.

Lemma remove_add_cnt c s an s' l k : Bounded c s -> add c s an = Some s' ->
  cnt (getm (remove c s' an) l) k = cnt (getm s l) k.
Proof. intros B H. rewrite cnt_remove, (cnt_add _ _ _ _ _ _ B H) by (eapply add_capped; eassumption). lia. Qed.

Lemma can_accept_iff c s an :
  can_accept c s an = true <->
  (forall l k lim, In (l, k) (keys_of an) -> limit c (e_size s) (strict an) l = Some lim -> cnt (getm s l) k < lim).
Proof.
  unfold can_accept. rewrite forallb_forall. split.
  - intros H l k lim Hin Hl. specialize (H _ Hin). unfold below in H. cbn [fst snd] in H. rewrite Hl in H. now apply N.ltb_lt.
  - intros H [l k] Hin. unfold below. cbn [fst snd]. destruct (limit c (e_size s) (strict an) l) eqn:Hl; [|reflexivity].
    apply N.ltb_lt. now apply (H l k).
Qed.

Definition Agree (s : enf) (adm : list analysis) : Prop :=
  forall l k, cnt (getm s l) k = count_adm adm l k.

Lemma count_adm_cons an adm l k : count_adm (an :: adm) l k = count_adm adm l k + hk l k an.
Proof. unfold count_adm, hk. cbn [filter]. destruct (has_key l k an); cbn [length]; lia. Qed.
Lemma count_adm_app a b l k : count_adm (a ++ b) l k = count_adm a l k + count_adm b l k.
Proof. unfold count_adm. rewrite filter_app, app_length. lia. Qed.

Lemma opt_eqb_eq a b : opt_eqb a b = true -> a = b.
Proof. destruct a, b; cbn; try discriminate; [intro H; apply N.eqb_eq in H; now subst | reflexivity]. Qed.
Lemma an_eqb_eq a b : an_eqb a b = true -> a = b.
Proof.
  destruct a as [v1 a1 a2 a3 [s1 c1 h1 p1]], b as [v2 b1 b2 b3 [s2 c2 h2 p2]]. unfold an_eqb, attrs_eqb.
  cbn [an_v4 an_k1 an_k2 an_k3 an_at a_asn a_country a_hosting a_vpn].
  rewrite !andb_true_iff, !N.eqb_eq, !Bool.eqb_true_iff. intros ((((-> & ->) & ->) & ->) & ((E1 & E2) & ->) & ->).
  now rewrite (opt_eqb_eq _ _ E1), (opt_eqb_eq _ _ E2).
Qed.
Lemma opt_eqb_refl a : opt_eqb a a = true.
Proof. destruct a; cbn [opt_eqb]; [apply N.eqb_refl | reflexivity]. Qed.
Lemma an_eqb_refl : forall a, an_eqb a a = true.
Proof.
  intros a. unfold an_eqb, attrs_eqb. rewrite !N.eqb_refl, !Bool.eqb_reflx, !opt_eqb_refl. reflexivity.
Qed.

Lemma count_adm_remove_one an adm l k : admitted_in an adm = true ->
  count_adm adm l k = count_adm (remove_one an adm) l k + hk l k an.
Proof.
  unfold admitted_in. induction adm as [|x t IH]; cbn [existsb remove_one]; [discriminate|].
  destruct (an_eqb an x) eqn:E.
  - intros _. apply an_eqb_eq in E; subst x. apply count_adm_cons.
  - cbn [orb]. intro H. rewrite !count_adm_cons, (IH H). lia.
Qed.

Lemma agree_init : Agree enf_init [].
Proof. intros l k. now destruct l. Qed.

Lemma spec_below_can_accept c s adm an : Agree s adm -> spec_below c (e_size s) adm an = can_accept c s an.
Proof.
  intro A. unfold spec_below, can_accept.
  induction (keys_of an) as [|[l k] t IH]; cbn [forallb]; [reflexivity|]. rewrite IH. f_equal.
  unfold below. cbn [fst snd]. now rewrite A.
Qed.

(* well-formed histories: room in the tracking tables before every step, and
   Remove is only called for an admitted node *)
Fixpoint hist_ok (c : cfg) (s : enf) (adm : list analysis) (ops : list op) : Prop :=
  match ops with
  | [] => True
  | o :: tl =>
      Bounded c s /\
      (match o with Remove ip at_ => admitted_in (analyze ip at_) adm = true | _ => True end) /\
      hist_ok c (fst (step c s o)) (adm_step c s adm o) tl
  end.

Lemma agree_step c s adm o : Bounded c s -> Agree s adm ->
  (match o with Remove ip at_ => admitted_in (analyze ip at_) adm = true | _ => True end) ->
  Agree (fst (step c s o)) (adm_step c s adm o).
Proof.
  intros B A W. destruct o as [ip a|ip a|n|ip a]; cbn [step adm_step fst]; [| | |exact A].
  - destruct (add c s (analyze ip a)) as [s'|] eqn:H.
    + rewrite (proj1 (add_some _ _ _ _ H)). intros l k. cbn [fst]. now rewrite (cnt_add _ _ _ _ _ _ B H), count_adm_cons, A.
    + unfold add in H. destruct (can_accept c s (analyze ip a)); [discriminate | exact A].
  - intros l k. rewrite cnt_remove, A, (count_adm_remove_one _ _ l k W) by now apply bounded_capped. lia.
  - intros l k. specialize (A l k). now destruct l.
Qed.

Lemma agree_run c ops : forall s adm, Agree s adm -> hist_ok c s adm ops ->
  Agree (run c s ops) (adm_run c s adm ops).
Proof.
  induction ops as [|o tl IH]; intros s adm A H; cbn [run adm_run]; [exact A|].
  destruct H as (B & W & H). apply IH; [now apply agree_step | exact H].
Qed.

Lemma per_ip_mono c a b : a <= b -> per_ip c a <= per_ip c b.
Proof.
  intro H. apply N.min_le_compat_l, N.max_le_compat_l. destruct (c_fden c) as [|d].
  - now destruct (a * c_fnum c), (b * c_fnum c).   (* x / 0 = 0 *)
  - apply N.div_le_mono; [discriminate | now apply N.mul_le_mono_r].
Qed.

(* a level capped at the larger size is capped at the smaller one, and lower *)
Lemma full_limit_mono c a b l y : a <= b -> full_limit c b l = Some y ->
  exists x, full_limit c a l = Some x /\ x <= y.
Proof.
  intro H. pose proof (per_ip_mono c a b H) as P.
  destruct l; cbn [full_limit]; intros [= <-]; eexists; (split; [reflexivity|]); try reflexivity.
  (* what remains depends on the size: the IPv4 levels *)
  - (* V32 *) exact P.
  - (* V24 *) apply N.min_le_compat_l, N.mul_le_mono_r, P.
  - (* V16 *) apply N.min_le_compat_l, N.mul_le_mono_r, P.
Qed.
Lemma full_limit_static c a l y : static_cap c l = Some y -> exists x, full_limit c a l = Some x /\ x <= y.
Proof.
  destruct l; cbn [full_limit static_cap]; intros [= <-]; eexists; (split; [reflexivity|]); try reflexivity.
  (* V32, V24, V16: a minimum with the ceiling *)
  all: apply N.le_min_l.
Qed.

Lemma halve_le st x : halve st x <= N.max 1 x.
Proof. destruct st; cbn [halve]; lia. Qed.
Lemma halve_ge_1 : forall x, 1 <= halve true x.
Proof. intro. cbn [halve]. lia. Qed.
Lemma halve_false : forall x, halve false x = x.
Proof. reflexivity. Qed.

(* ceiling invariant: [hw] is the largest network size in force so far *)
Definition CapInv (c : cfg) (hw : N) (s : enf) : Prop :=
  e_size s <= hw /\ forall l k lim, full_limit c hw l = Some lim -> cnt (getm s l) k <= N.max 1 lim.

Lemma capinv_init c hw : CapInv c hw enf_init.
Proof. split; [apply N.le_0_l|]. intros l k lim _. destruct l; apply N.le_0_l. Qed.

Lemma capinv_mono c hw hw' s : hw <= hw' -> CapInv c hw s -> CapInv c hw' s.
Proof.
  intros H [Hs I]. split; [lia|]. intros l k lim' L'.
  destruct (full_limit_mono c _ _ l lim' H L') as (lim & L & ?). specialize (I l k lim L). lia.
Qed.

(* an admission passed the limit of the current size, which is below that of [hw] *)
Lemma capinv_add c hw s an s' : Bounded c s -> CapInv c hw s -> add c s an = Some s' -> CapInv c hw s'.
Proof.
  intros B [Hs I] H. split; [now rewrite (size_add _ _ _ _ H)|]. intros l k lim L.
  specialize (I l k lim L). rewrite (cnt_add _ _ _ _ _ _ B H), hk_key_at.
  destruct (key_at (keys_of an) l) as [k'|] eqn:K; [|lia]. destruct (N.eqb_spec k' k) as [->|]; [|lia].
  destruct (full_limit_mono c _ _ l lim Hs L) as (lim0 & L0 & ?).
  apply add_some in H as [Hc _].
  assert (cnt (getm s l) k < halve (strict an) lim0).
  { apply (proj1 (can_accept_iff c s an) Hc l k); [now apply key_at_in | unfold limit; now rewrite L0]. }
  pose proof (halve_le (strict an) lim0). lia.
Qed.

Lemma capinv_remove c hw s an : Capped c s -> CapInv c hw s -> CapInv c hw (remove c s an).
Proof.
  intros C [Hs I]. split; [now rewrite size_remove|]. intros l k lim L.
  rewrite cnt_remove by assumption. specialize (I l k lim L). lia.
Qed.

Lemma capinv_step c hw s o : Bounded c s -> CapInv c hw s ->
  CapInv c (match o with SetSize n => N.max hw n | _ => hw end) (fst (step c s o)).
Proof.
  intros B I. destruct o as [ip a|ip a|n|ip a]; cbn [step fst]; [| | |exact I].
  - destruct (add c s (analyze ip a)) as [s'|] eqn:H; [eapply capinv_add; eassumption | exact I].
  - apply capinv_remove; auto using bounded_capped.
  - destruct (capinv_mono c hw (N.max hw n) s (N.le_max_l _ _) I) as [_ I'].
    split; [apply N.le_max_r|]. intro l. specialize (I' l). now destruct l.
Qed.

Lemma capinv_run c ops : forall hw s adm, hist_ok c s adm ops -> CapInv c hw s ->
  CapInv c (hw_run hw ops) (run c s ops).
Proof.
  induction ops as [|o tl IH]; intros hw s adm H I; cbn [run hw_run]; [exact I|].
  destruct H as (B & _ & H). pose proof (capinv_step c hw s o B I).
  destruct o; apply (IH _ _ _ H); assumption.
Qed.

Fixpoint sizes_nondecreasing (cur : N) (ops : list op) : Prop :=
  match ops with
  | [] => True
  | SetSize n :: tl => cur <= n /\ sizes_nondecreasing n tl
  | _ :: tl => sizes_nondecreasing cur tl
  end.

Lemma size_step c s o : e_size (fst (step c s o)) = match o with SetSize n => n | _ => e_size s end.
Proof.
  destruct o as [ip a|ip a|n|ip a]; cbn [step]; [|apply size_remove|reflexivity..].
  destruct (add c s (analyze ip a)) eqn:H; [apply (size_add _ _ _ _ H) | reflexivity].
Qed.
Lemma hw_run_nondecreasing c ops : forall s, sizes_nondecreasing (e_size s) ops ->
  hw_run (e_size s) ops = e_size (run c s ops).
Proof.
  induction ops as [|o tl IH]; intros s H; [reflexivity|]. cbn [run].
  rewrite <- IH by (rewrite size_step; destruct o; cbn [sizes_nondecreasing] in H; easy).
  rewrite size_step. destruct o; cbn [hw_run]; try reflexivity.
  (* SetSize n: the size rises to n *)
  destruct H as [H _]. now rewrite N.max_r.
Qed.

Lemma cnt_rincr m r r' : cnt (rincr m r) r' = cnt m r' + (if (r =? r') then 1 else 0).
Proof. unfold rincr. rewrite cnt_set. destruct (N.eqb_spec r r') as [->|]; lia. Qed.
Lemma cnt_rdecr m r r' : cnt (rdecr m r) r' = cnt m r' - (if (r =? r') then 1 else 0).
Proof.
  unfold rdecr. destruct (peek m r) as [c|] eqn:P; [rewrite cnt_set|];
    destruct (N.eqb_spec r r') as [<-|]; try lia; unfold cnt; rewrite P; lia.
Qed.

(* what one routing entry contributes to the tallies *)
Definition ent_hk (l : level) (k : N) (e : entry) : N :=
  match gate_ip (en_addr e) with Some ip => hk l k (analyze ip no_attrs) | None => 0 end.
Definition ent_rk (r : N) (e : entry) : N :=
  match gate_ip (en_addr e) with Some ip => if (region_of ip =? r) then 1 else 0 | None => 0 end.

Fixpoint sum_over (f : entry -> N) (tab : list entry) : N :=
  match tab with [] => 0 | e :: t => f e + sum_over f t end.

Lemma sum_over_app f a b : sum_over f (a ++ b) = sum_over f a + sum_over f b.
Proof. induction a as [|e t IH]; cbn [app sum_over]; lia. Qed.

Lemma sum_over_snoc f t e : sum_over f (t ++ [e]) = sum_over f t + f e.
Proof. rewrite sum_over_app. cbn [sum_over]. lia. Qed.

Lemma sum_over_filter f (p : entry -> bool) tab :
  sum_over f tab = sum_over f (filter p tab) + sum_over f (filter (fun e => negb (p e)) tab).
Proof. induction tab as [|e t IH]; cbn [filter sum_over]; [reflexivity|]. destruct (p e); cbn [negb sum_over]; lia. Qed.

Lemma count_adm_sum_over tab l k : count_adm (adm_of tab) l k = sum_over (ent_hk l k) tab.
Proof.
  induction tab as [|e t IH]; [reflexivity|]. cbn [sum_over]. rewrite <- IH.
  unfold adm_of, ent_hk. cbn [flat_map]. rewrite count_adm_app. f_equal.
  destruct (gate_ip (en_addr e)); [rewrite count_adm_cons|]; reflexivity.
Qed.
Lemma reg_count_sum_over tab r : reg_count tab r = sum_over (ent_rk r) tab.
Proof.
  induction tab as [|e t IH]; [reflexivity|]. cbn [sum_over]. rewrite <- IH.
  unfold reg_count, ent_rk. cbn [filter]. destruct (gate_ip (en_addr e)) as [ip|]; [|lia].
  destruct (region_of ip =? r); cbn [length]; lia.
Qed.

(* State of the pipeline: the counters are the tallies of the entries [tl] - the routing table,
   except half-way through an eviction - and obey the caps of network size 0; no tracking table
   holds more than [n] keys, [n] being the number of operations so far. *)
Record EInv (c : cfg) (n : N) (g : eng) (tl : list entry) : Prop := mkEInv {
  ei_agree : forall l k, cnt (getm (g_enf g) l) k = sum_over (ent_hk l k) tl;
  ei_reg : forall r, cnt (g_reg g) r = sum_over (ent_rk r) tl;
  ei_len : forall l, len (getm (g_enf g) l) <= n;
  ei_cap : CapInv c 0 (g_enf g);
  ei_regcap : forall r, cnt (g_reg g) r <= DIV_REGION_CAP
}.

Lemma einv_init c : EInv c 0 eng_init [].
Proof.
  constructor; cbn [eng_init g_enf g_reg sum_over]; [now destruct l | reflexivity | now destruct l | apply capinv_init | intro; apply N.le_0_l].
Qed.

(* the invariant reads the state through its counts only *)
Lemma einv_same c n n' g g' tl : EInv c n g tl ->
  (forall l k, cnt (getm (g_enf g') l) k = cnt (getm (g_enf g) l) k) ->
  (forall x, cnt (g_reg g') x = cnt (g_reg g) x) -> e_size (g_enf g') = e_size (g_enf g) ->
  (forall l, len (getm (g_enf g') l) <= n') -> EInv c n' g' tl.
Proof.
  intros [A R _ [S I] RC] E Er Es L. constructor; [| |exact L| |].
  - intros l k. rewrite E. apply A.
  - intro r. rewrite Er. apply R.
  - split; [now rewrite Es|]. intros l k lim Hl. rewrite E. now apply I.
  - intro r. rewrite Er. apply RC.
Qed.
Lemma einv_weaken c n n' g tl : n <= n' -> EInv c n g tl -> EInv c n' g tl.
Proof. intros H E. apply (einv_same c n n' g g tl E); auto. intro l. pose proof (ei_len _ _ _ _ E l). lia. Qed.

(* eviction: releasing an entry takes it out of the tallied ones *)
Lemma einv_release c n g e tl : n <= c_track c -> EInv c n g (e :: tl) -> EInv c n (release c g e) tl.
Proof.
  intros Hn [A R L I RC]. assert (C : Capped c (g_enf g)) by (intro l; specialize (L l); lia).
  cbn [sum_over] in A, R. unfold release. destruct (gate_ip (en_addr e)) as [ip|] eqn:G.
  - constructor; cbn [g_enf g_reg].
    + intros l k. rewrite cnt_remove, A by exact C. unfold ent_hk. rewrite G. lia.
    + intro r. rewrite cnt_rdecr, R. unfold ent_rk. rewrite G. lia.
    + intro l. pose proof (len_remove c (g_enf g) (analyze ip no_attrs) l C). specialize (L l). lia.
    + now apply capinv_remove.
    + intro r. rewrite cnt_rdecr. specialize (RC r). lia.
  - constructor; trivial.
    + intros l k. rewrite A. unfold ent_hk. now rewrite G.
    + intro r. rewrite R. unfold ent_rk. now rewrite G.
Qed.

Lemma einv_release_all c n gone : forall g keep, n <= c_track c -> EInv c n g (gone ++ keep) ->
  EInv c n (fold_left (release c) gone g) keep /\ g_tab (fold_left (release c) gone g) = g_tab g.
Proof.
  induction gone as [|e t IH]; intros g keep Hn E; [now split|]. cbn [fold_left].
  destruct (IH (release c g e) keep Hn (einv_release _ _ _ _ _ Hn E)) as [E' ->].
  split; [exact E'|]. unfold release. now destruct (gate_ip (en_addr e)).
Qed.

Lemma einv_core_remove c n g id : n <= c_track c -> EInv c n g (g_tab g) ->
  let g' := core_remove c g id in
  EInv c n g' (g_tab g') /\ g_tab g' = filter (fun e => negb (en_id e =? id)) (g_tab g).
Proof.
  intros Hn [A R L I RC]. cbv beta zeta delta [core_remove]. set (p := fun e => en_id e =? id).
  change (fun e : entry => negb (en_id e =? id)) with (fun e => negb (p e)). set (keep := filter (fun e => negb (p e)) (g_tab g)).
  destruct (einv_release_all c n (filter p (g_tab g)) (mkEng (g_enf g) (g_reg g) keep) keep Hn)
    as [E T]; [|cbn [g_tab] in T; rewrite T; now split].
  constructor; cbn [g_enf g_reg]; trivial.
  - intros l k. now rewrite A, sum_over_app, <- sum_over_filter.
  - intro r. now rewrite R, sum_over_app, <- sum_over_filter.
Qed.

(* the admission pipeline: invariant preserved; any refusal leaves the table unchanged, hence
   (the counters being its tallies before and after) every count *)
Lemma einv_core_add c self n g id addr valid : n < c_track c -> EInv c n g (g_tab g) ->
  let r := core_add c self g id addr valid in
  EInv c (n + 1) (fst r) (g_tab (fst r)) /\ (snd r <> 0 -> g_tab (fst r) = g_tab g).
Proof.
  intros Hn E. pose proof E as [A R L I RC]. cbv zeta. unfold core_add.
  assert (W : EInv c (n + 1) g (g_tab g)) by (apply (einv_weaken c n); [lia | exact E]).
  assert (B : Bounded c (g_enf g)) by (intro l; specialize (L l); lia).
  destruct valid; cbn [negb]; [|now split].
  destruct (gate_ip addr) as [ip|] eqn:G.
  2:{ destruct (bucket_len self (g_tab g) (bucket_of self id) <? DIV_BUCKET_K); [|now split].
      split; [|now intros []]. destruct W as [_ _ L' I' RC']. constructor; cbn [fst g_enf g_reg g_tab]; trivial.
      - intros l k. rewrite A, sum_over_snoc. unfold ent_hk. cbn [en_addr]. rewrite G. lia.
      - intro r. rewrite R, sum_over_snoc. unfold ent_rk. cbn [en_addr]. rewrite G. lia. }
  set (an := analyze ip no_attrs).
  destruct (add c (g_enf g) an) as [e1|] eqn:AD; [|now split].
  (* a roll-back restores every count *)
  assert (Back : forall reg, (forall x, cnt reg x = cnt (g_reg g) x) ->
            EInv c (n + 1) (mkEng (remove c e1 an) reg (g_tab g)) (g_tab g)).
  { intros reg Hreg. apply (einv_same c n _ g); cbn [g_enf g_reg]; trivial.
    - intros. now apply remove_add_cnt.
    - now rewrite size_remove, (size_add _ _ _ _ AD).
    - intro l. pose proof (len_remove c e1 an l (add_capped _ _ _ _ B AD)). pose proof (len_add _ _ _ _ l B AD). specialize (L l). lia. }
  destruct (N.leb_spec DIV_REGION_CAP (cnt (g_reg g) (region_of ip))) as [|RG]; [split; [now apply Back|reflexivity]|].
  destruct (bucket_len self (g_tab g) (bucket_of self id) <? DIV_BUCKET_K).
  - split; [|now intros []]. constructor; cbn [fst g_enf g_reg g_tab].
    + intros l k. rewrite (cnt_add _ _ _ _ _ _ B AD), A, sum_over_snoc. unfold ent_hk. cbn [en_addr]. now rewrite G.
    + intro x. rewrite cnt_rincr, R, sum_over_snoc. unfold ent_rk. cbn [en_addr]. now rewrite G.
    + intro l. pose proof (len_add _ _ _ _ l B AD). specialize (L l). lia.
    + now apply (capinv_add c 0 (g_enf g) an).
    + intro x. rewrite cnt_rincr. specialize (RC x). destruct (N.eqb_spec (region_of ip) x) as [<-|]; lia.
  - split; [apply Back|reflexivity]. intro x. rewrite cnt_rdecr, cnt_rincr. destruct (region_of ip =? x); lia.
Qed.

Lemma einv_estep c self n g o : n < c_track c -> EInv c n g (g_tab g) ->
  EInv c (n + 1) (fst (estep c self g o)) (g_tab (fst (estep c self g o))).
Proof.
  intros Hn E. assert (W : EInv c (n + 1) g (g_tab g)) by (apply (einv_weaken c n); [lia | exact E]).
  destruct o as [id addr valid|id|id]; cbn [estep fst]; [|apply einv_core_remove; [lia | exact W] ..].
  destruct (listed (g_tab g) id); [exact W | now apply einv_core_add].
Qed.

(* histories shorter than the tracking bound never fill a tracking table *)
Lemma einv_run c self ops : forall n g, n + N.of_nat (length ops) <= c_track c -> EInv c n g (g_tab g) ->
  EInv c (n + N.of_nat (length ops)) (erun c self g ops) (g_tab (erun c self g ops)).
Proof.
  induction ops as [|o tl IH]; intros n g H E; cbn [erun length] in *; [now rewrite N.add_0_r|].
  replace (n + N.of_nat (S (length tl))) with (n + 1 + N.of_nat (length tl)) by lia.
  apply IH; [lia | apply einv_estep; [lia | exact E]].
Qed.

Lemma einv_reach c self ops : N.of_nat (length ops) <= c_track c ->
  EInv c (N.of_nat (length ops)) (erun c self eng_init ops) (g_tab (erun c self eng_init ops)).
Proof. intro H. apply (einv_run c self ops 0 eng_init H (einv_init c)). Qed.

Lemma strip_nospace s t : (forall ch, In ch s -> ch <> 32) -> strip_suffix (s ++ t) = s ++ strip_suffix t.
Proof.
  induction s as [|a s IH]; intro H; [reflexivity|].
  cbn [app strip_suffix]. rewrite (proj2 (N.eqb_neq a 32)) by (apply H; now left). cbn [andb].
  f_equal. apply IH. intros ch Hc. apply H. now right.
Qed.
Lemma strip_nospace_all s : (forall ch, In ch s -> ch <> 32) -> strip_suffix s = s.
Proof. intro H. rewrite <- (app_nil_r s) at 1. rewrite strip_nospace by exact H. apply app_nil_r. Qed.
