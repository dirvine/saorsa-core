(* Lemmas for C18 (Model/KeyStore.v): the manager simulates the reference machine
   ([rel]: the store file opens as the reference state says, the cache holds only
   what the reference machine would answer); what a crash leaves; the byte layout
   read back; the toy primitives are ideal. *)
From SV Require Import Lib.Base Lib.Bytes Gen.KeyStoreConsts Model.KeyStore.
Local Open Scope N_scope.

Lemma optN_eqb_iff : forall a b, optN_eqb a b = true <-> a = b.
Proof. intros [x|] [y|]; cbn; rewrite ?N.eqb_eq; split; congruence. Qed.

Lemma optN_eqb_refl : forall a, optN_eqb a a = true.
Proof. intro a. apply optN_eqb_iff. reflexivity. Qed.

Lemma pl_get_set : forall id sd pl id',
  pl_get id' (pl_set id sd pl) = if id =? id' then Some sd else pl_get id' pl.
Proof.
  intros id sd pl id'. unfold pl_set. cbn [pl_get]. destruct (N.eqb_spec id id') as [|Hne]; [reflexivity|].
  induction pl as [|[i s] t IH]; cbn; [reflexivity|]. destruct (N.eqb_spec i id) as [->|]; cbn.
  - destruct (N.eqb_spec id id'); [contradiction|exact IH].
  - rewrite IH. reflexivity.
Qed.

Lemma arun_cons : forall pw_ok strict a o tl,
  arun pw_ok strict a (o :: tl) =
  (fst (arun pw_ok strict (fst (astep pw_ok strict a o)) tl),
   snd (astep pw_ok strict a o) :: snd (arun pw_ok strict (fst (astep pw_ok strict a o)) tl)).
Proof. intros. cbn [arun]. destruct (astep _ _ a o) as [a1 r]. cbn [fst snd]. destruct (arun _ _ a1 tl). reflexivity. Qed.

Definition writes (o : op) : bool :=
  match o with Init _ _ _ _ | Store _ _ _ _ _ | Change _ _ _ _ _ => true | _ => false end.

Section Ideal.
  Context {key : Type} {kdf : N -> N -> bytes -> key} {enc : key -> bytes -> payload -> bytes}
          {dec : key -> bytes -> bytes -> option payload} {vf : N -> N} (pw_ok : N -> bool).
  Hypothesis Hkdf : ideal_kdf kdf.
  Hypothesis Haead : ideal_aead enc dec.
  Hypothesis Hvf : ideal_vf vf.

  (* the primitives are fixed from here on; [unfold] and [cbn [..]] want the constants
     themselves: [KeyStore.step], [KeyStore.load_file], ... *)
  Notation load_file := (load_file key kdf dec).
  Notation load := (load key kdf dec).
  Notation seal := (seal key kdf enc).
  Notation remember := (remember vf true).
  Notation from_file := (from_file key kdf dec vf true).
  Notation step_at := (step_at key kdf enc dec vf pw_ok true).
  Notation step := (step key kdf enc dec vf pw_ok true).
  Notation run := (run key kdf enc dec vf pw_ok true).
  Notation astep_at := (astep_at pw_ok true).
  Notation astep := (astep pw_ok true).
  Notation arun := (arun pw_ok true).
  Notation opens := (opens true).

  Lemma load_file_iff : forall lvl f p pl, load_file lvl f p = Some pl <->
    f_version f = KS_FORMAT_VERSION /\ f_ct f = enc (kdf lvl p (f_salt f)) (f_nonce f) pl.
  Proof.
    intros lvl f p pl. destruct Haead as (Hdec & Hgen & _). unfold KeyStore.load_file.
    destruct (N.eqb_spec (f_version f) KS_FORMAT_VERSION) as [Hv|Hv].
    - split; [intro H; split; [exact Hv|apply Hgen, H]|intros [_ ->]; apply Hdec].
    - split; [discriminate|intros [? _]; contradiction].
  Qed.

  (* a sealed file opens under the password and level it was sealed with, and no other *)
  Lemma load_seal : forall lvl' q lvl p salt nonce ts pl,
    load_file lvl' (seal lvl p salt nonce ts pl) q = if (q =? p) && (lvl' =? lvl) then Some pl else None.
  Proof.
    intros lvl' q lvl p salt nonce ts pl. destruct (load_file lvl' _ q) as [pl'|] eqn:E.
    - apply load_file_iff in E. destruct E as [_ E]. apply Haead in E. destruct E as (Hk & _ & ->).
      apply Hkdf in Hk. destruct Hk as (-> & -> & _). rewrite !N.eqb_refl. reflexivity.
    - destruct (N.eqb_spec q p) as [->|]; [|reflexivity]. destruct (N.eqb_spec lvl' lvl) as [->|]; [|reflexivity].
      rewrite (proj2 (load_file_iff _ _ _ pl)) in E; [discriminate|split; reflexivity].
  Qed.

  (* same level, and the store file opens, at any level and under any password, as
     the reference state says *)
  Definition disk_rel (s : state) (a : astate) : Prop :=
    m_level s = a_level a /\
    forall lvl p, match d_main s with Some f => load_file lvl f p | None => None end
                  = opens (mkA (a_file a) lvl) p.

  (* whatever the cache holds is what the reference state gives for the password
     the cache was filled under *)
  Definition cache_rel (s : state) (a : astate) : Prop :=
    forall id sd, pl_get id (m_cache s) = Some sd ->
    exists P pl, m_ver s = Some (vf P) /\ opens a P = Some pl /\ pl_get id pl = Some sd.

  (* a cut update leaves a cache that is lost with the process: [warm = false] *)
  Definition rel (warm : bool) (s : state) (a : astate) : Prop :=
    disk_rel s a /\ (warm = true -> cache_rel s a).
  Notation sim := (rel true).
  (* outcomes of a call on the two machines: same verdict(s), related states *)
  Definition agree {R} (warm : bool) (x : state * R) (y : astate * R) : Prop :=
    snd x = snd y /\ rel warm (fst x) (fst y).

  Lemma sim_init : forall lvl, sim (st_init lvl) (a_init lvl).
  Proof. intro lvl. split; [split; reflexivity|intros _ id sd [=]]. Qed.

  Lemma rel_wipe : forall b s a, disk_rel s a -> rel b (wipe s) a.
  Proof. intros b s a H. split; [exact H|intros _ id sd [=]]. Qed.

  Lemma sim_weaken : forall b s a, sim s a -> rel b s a.
  Proof. intros b s a [Hd Hc]. split; [exact Hd|intros _; exact (Hc eq_refl)]. Qed.

  Lemma agree_unchanged : forall b s a (r : res), sim s a -> agree b (s, r) (a, r).
  Proof. intros b s a r H. split; [reflexivity|apply sim_weaken, H]. Qed.

  Lemma load_opens : forall s a p, disk_rel s a -> load s p = opens a p.
  Proof. intros s a p [Hl Hd]. unfold KeyStore.load. rewrite Hl. apply Hd. Qed.

  (* the reference machine right after a write under password [P] *)
  Lemma opens_fresh : forall P L pl q, opens (mkA (Some (P, L, pl)) L) q = if q =? P then Some pl else None.
  Proof. intros. cbn. rewrite N.eqb_refl, andb_true_r. reflexivity. Qed.

  (* a file update cut at [pt] replaces the store file only at the rename *)
  Lemma rel_disk_write : forall pt s a p salt nonce ts pl, disk_rel s a ->
    disk_rel (disk_write pt s (seal (m_level s) p salt nonce ts pl))
             (if cp_done pt then mkA (Some (p, a_level a, pl)) (a_level a) else a).
  Proof.
    intros pt s a p salt nonce ts pl [Hl Hd]. destruct pt; try exact (conj Hl Hd).
    split; [exact Hl|]. intros lvl q. rewrite Hl. apply load_seal.
  Qed.

  (* a cache hit that passes the verifier is the reference machine's answer *)
  Lemma cache_hit : forall s a p id sd, cache_rel s a ->
    optN_eqb (m_ver s) (Some (vf p)) = true -> pl_get id (m_cache s) = Some sd ->
    exists pl, opens a p = Some pl /\ pl_get id pl = Some sd.
  Proof.
    intros s a p id sd Hc Ev G. destruct (Hc _ _ G) as (P & pl & Hv & Ho & Hg).
    rewrite Hv in Ev. apply optN_eqb_iff in Ev. injection Ev as Ev. apply Hvf in Ev. subst P. eauto.
  Qed.

  (* cache insert after password [p] opened the file and found (or put) [sd] under
     [id]; what stays in the cache was entered under [p] *)
  Lemma rel_remember : forall s a p id sd pl, disk_rel s a ->
    opens a p = Some pl -> pl_get id pl = Some sd ->
    (forall id' sd', id' <> id -> optN_eqb (m_ver s) (Some (vf p)) = true ->
                     pl_get id' (m_cache s) = Some sd' -> pl_get id' pl = Some sd') ->
    sim (remember s p id sd) a.
  Proof.
    intros s a p id sd pl Hd Ho Hg Hold. split; [exact Hd|]. intros _ id' sd' G. exists p, pl.
    split; [reflexivity|]. split; [exact Ho|]. cbn [KeyStore.remember m_cache] in G. rewrite pl_get_set in G.
    destruct (N.eqb_spec id id') as [<-|Hne]; [congruence|].
    destruct (optN_eqb (m_ver s) (Some (vf p))) eqn:Ev; [|discriminate]. auto.
  Qed.

  Lemma retrieve_sim : forall s a id p, sim s a -> agree true (step s (Retrieve id p)) (astep a (Retrieve id p)).
  Proof.
    intros s a id p H. pose proof H as [Hd Hc]. specialize (Hc eq_refl). unfold KeyStore.astep. cbn [KeyStore.astep_at].
    assert (Hf : agree true (from_file s id p) (astep a (Retrieve id p))).
    { unfold KeyStore.from_file, KeyStore.astep. cbn [KeyStore.astep_at]. rewrite (load_opens s a p Hd).
      destruct (opens a p) as [pl|] eqn:E; [|apply agree_unchanged, H].
      destruct (pl_get id pl) as [sd|] eqn:G; [|apply agree_unchanged, H].
      split; [reflexivity|]. apply (rel_remember s a p id sd pl Hd E G).
      intros id' sd' _ Ev G'. destruct (cache_hit s a p id' sd' Hc Ev G') as (pl' & E' & Hg). congruence. }
    unfold KeyStore.step. cbn [KeyStore.step_at].
    destruct (pl_get id (m_cache s)) as [sd|] eqn:G; [|exact Hf].
    destruct (optN_eqb (m_ver s) (Some (vf p))) eqn:Ev; [|exact Hf].
    destruct (cache_hit s a p id sd Hc Ev G) as (pl & E & Hg). rewrite E, Hg. apply agree_unchanged, H.
  Qed.

  (* one call whose file update is cut at [pt]: same verdict; the disk agrees with
     the reference state that moved iff the rename happened, and so does the cache
     when the call was complete *)
  Lemma step_at_rel : forall o pt s a, sim s a ->
    agree (cp_done pt) (step_at pt s o) (astep_at (cp_done pt) a o).
  Proof.
    induction o as [p salt nonce ts|id sd p nonce ts|id p|old new salt nonce ts| |lvl|pt' o' IH];
      intros pt s a H; pose proof H as [Hd Hc]; cbn [KeyStore.step_at KeyStore.astep_at].
    - destruct (pw_ok p); [|apply agree_unchanged, H]. split; [reflexivity|]. apply rel_wipe, rel_disk_write, Hd.
    - pose proof (load_opens s a p Hd) as El. rewrite El.
      destruct (opens a p) as [pl|] eqn:E; [|apply agree_unchanged, H].
      destruct (d_main s) as [f|] eqn:Em; [|unfold KeyStore.load in El; rewrite Em in El; discriminate].
      split; [reflexivity|].
      pose proof (rel_disk_write pt s a p (f_salt f) nonce ts (pl_set id sd pl) Hd) as Hw.
      destruct pt; try (split; [exact Hw|discriminate]).
      apply (rel_remember _ _ p id sd (pl_set id sd pl) Hw).
      + rewrite opens_fresh, N.eqb_refl. reflexivity.
      + rewrite pl_get_set, N.eqb_refl. reflexivity.
      + intros id' sd' Hne Ev G. destruct (cache_hit s a p id' sd' (Hc eq_refl) Ev G) as (pl' & E' & Hg).
        rewrite pl_get_set. destruct (N.eqb_spec id id'); congruence.
    - destruct (retrieve_sim s a id p H) as [H1 H2]. split; [exact H1|apply sim_weaken, H2].
    - destruct (pw_ok new); [|apply agree_unchanged, H]. rewrite (load_opens s a old Hd).
      destruct (opens a old) as [pl|]; [|apply agree_unchanged, H].
      split; [reflexivity|]. apply rel_wipe, rel_disk_write, Hd.
    - split; [reflexivity|apply rel_wipe, Hd].
    - split; [reflexivity|]. split; [split; [reflexivity|apply Hd]|intros _ id sd [=]].
    - split; [reflexivity|]. apply rel_wipe, (IH pt' s a H).
  Qed.

  Lemma step_sim : forall s a o, sim s a -> agree true (step s o) (astep a o).
  Proof. intros s a o H. exact (step_at_rel o CDone s a H). Qed.

  Lemma run_cons : forall s o tl,
    run s (o :: tl) = (fst (run (fst (step s o)) tl), snd (step s o) :: snd (run (fst (step s o)) tl)).
  Proof. intros. cbn [KeyStore.run]. destruct (step s o) as [s1 r]. cbn [fst snd]. destruct (run s1 tl). reflexivity. Qed.

  Lemma run_sim : forall ops s a, sim s a -> agree true (run s ops) (arun a ops).
  Proof.
    induction ops as [|o tl IH]; intros s a H; [split; [reflexivity|exact H]|].
    rewrite run_cons, arun_cons. destruct (step_sim s a o H) as [E H2]. destruct (IH _ _ H2) as [E' H4].
    split; cbn [fst snd]; [rewrite E, E'; reflexivity|exact H4].
  Qed.

  Theorem refines_spec : forall lvl0 ops,
    snd (run (st_init lvl0) ops) = snd (arun (a_init lvl0) ops).
  Proof. intros. apply run_sim, sim_init. Qed.

  Lemma reachable_sim : forall lvl0 ops,
    sim (fst (run (st_init lvl0) ops)) (fst (arun (a_init lvl0) ops)).
  Proof. intros. apply run_sim, sim_init. Qed.

  (* two states that stand for the same reference state cannot be told apart *)
  Lemma sim_run_eq : forall s s' a rest, sim s a -> sim s' a -> snd (run s rest) = snd (run s' rest).
  Proof. intros s s' a rest H H'. rewrite (proj1 (run_sim rest s a H)). symmetry. apply run_sim, H'. Qed.

  Lemma astep_at_false : forall o a,
    fst (astep_at false a o) = if writes o then a else fst (astep_at true a o).
  Proof.
    destruct o; intro a; cbn [KeyStore.astep_at writes]; try reflexivity.
    - destruct (pw_ok p); reflexivity.
    - destruct (opens a p); reflexivity.
    - destruct (pw_ok new), (opens a old); reflexivity.
  Qed.

  (* a crash inside any call, at any point, then a restart: every later verdict is
     the one obtained by completing the call and restarting if the rename happened
     (or the call writes nothing), by restarting without the call otherwise *)
  Lemma crash_outcome : forall s a pt o rest, sim s a ->
    snd (run (fst (step s (Crash pt o))) rest) =
    snd (run (wipe (if cp_done pt || negb (writes o) then fst (step s o) else s)) rest).
  Proof.
    intros s a pt o rest H. apply (sim_run_eq _ _ (fst (astep_at (cp_done pt) a o))); apply rel_wipe.
    - apply (step_at_rel o pt s a H).
    - destruct (cp_done pt); cbn [orb]; [apply (step_sim s a o H)|]. rewrite astep_at_false.
      destruct (writes o); cbn [negb]; [apply H|apply (step_sim s a o H)].
  Qed.

  (* the state after a call, warm or restarted, answers as the reference machine
     after that call *)
  Lemma retrieve_after : forall s a o id q, sim s a ->
    snd (step (fst (step s o)) (Retrieve id q)) = snd (astep (fst (astep a o)) (Retrieve id q)) /\
    snd (step (wipe (fst (step s o))) (Retrieve id q)) = snd (astep (fst (astep a o)) (Retrieve id q)).
  Proof.
    intros s a o id q H. pose proof (proj2 (step_sim s a o H)) as H1.
    split; apply retrieve_sim; [exact H1|apply rel_wipe, H1].
  Qed.

  (* the reference machine right after a store, and after a password change *)
  Lemma astore_retrieve : forall a id sd p nonce ts q, snd (astep a (Store id sd p nonce ts)) = ROk ->
    snd (astep (fst (astep a (Store id sd p nonce ts))) (Retrieve id q)) = if q =? p then RSeed sd else RErr.
  Proof.
    intros a id sd p nonce ts q. unfold KeyStore.astep. cbn [KeyStore.astep_at].
    destruct (opens a p) as [pl|]; [|discriminate]. intros _. cbn [fst]. rewrite opens_fresh.
    destruct (q =? p); [rewrite pl_get_set, N.eqb_refl|]; reflexivity.
  Qed.

  Lemma achange_retrieve : forall a old new salt nonce ts id,
    snd (astep a (Change old new salt nonce ts)) = ROk -> old <> new ->
    snd (astep (fst (astep a (Change old new salt nonce ts))) (Retrieve id old)) = RErr.
  Proof.
    intros a old new salt nonce ts id. unfold KeyStore.astep. cbn [KeyStore.astep_at].
    destruct (pw_ok new); [|discriminate]. destruct (opens a old) as [pl|]; [|discriminate]. intros _ Hne.
    cbn [fst]. rewrite opens_fresh. destruct (N.eqb_spec old new); [contradiction|reflexivity].
  Qed.

End Ideal.

Section Levels.
  Variable pw_ok : N -> bool.
  Variable lvl0 : N.

  Definition alevel_ok (a : astate) : Prop :=
    a_level a = lvl0 /\ forall P L pl, a_file a = Some (P, L, pl) -> L = lvl0.

  Lemma opens_level : forall a p, alevel_ok a -> opens true a p = opens false a p.
  Proof.
    intros a p [H1 H2]. unfold opens. destruct (a_file a) as [[[P L] pl]|]; [|reflexivity].
    rewrite H1, (H2 _ _ _ eq_refl), N.eqb_refl. reflexivity.
  Qed.

  Lemma alevel_write : forall (d : bool) a p pl, alevel_ok a ->
    alevel_ok (if d then mkA (Some (p, a_level a, pl)) (a_level a) else a).
  Proof. intros d a p pl H. destruct d; [|exact H]. split; [apply H|]. intros ? ? ? [= _ <- _]. apply H. Qed.

  Lemma astep_at_level : forall o d a, alevel_ok a -> op_level_ok lvl0 o ->
    astep_at pw_ok true d a o = astep_at pw_ok false d a o /\ alevel_ok (fst (astep_at pw_ok true d a o)).
  Proof.
    induction o as [p salt nonce ts|id sd p nonce ts|id p|old new salt nonce ts| |lvl|pt' o' IH]; intros d a Ha Ho;
      cbn [astep_at]; try rewrite (opens_level a _ Ha).
    - destruct (pw_ok p); cbn [fst]; auto using alevel_write.
    - destruct (opens false a p); cbn [fst]; auto using alevel_write.
    - destruct (opens false a p) as [pl|]; [destruct (pl_get id pl)|]; auto.
    - destruct (pw_ok new), (opens false a old); cbn [fst]; auto using alevel_write.
    - auto.
    - cbn in Ho. subst lvl. split; [reflexivity|]. split; [reflexivity|apply Ha].
    - destruct (IH (cp_done pt') a Ha Ho) as [E H]. rewrite <- E. auto.
  Qed.

  Lemma arun_level : forall ops a, alevel_ok a -> same_level lvl0 ops ->
    snd (arun pw_ok true a ops) = snd (arun pw_ok false a ops).
  Proof.
    induction ops as [|o tl IH]; intros a Ha Hs; [reflexivity|].
    inversion Hs as [|? ? Ho Htl]; subst. rewrite !arun_cons. unfold astep.
    destruct (astep_at_level o true a Ha Ho) as [<- H]. rewrite (IH _ H Htl). reflexivity.
  Qed.
End Levels.

(* [lastmax] is the largest value allowed in the last of the [S m] positions *)
Lemma take_var_varint : forall lastmax, lastmax < 128 -> forall m n r,
  n < 128 ^ N.of_nat m * (lastmax + 1) -> take_var (S m) lastmax (varint (S m) n ++ r) = Some (n, r).
Proof.
  intros lastmax Hl. induction m as [|m IH]; intros n r Hn.
  - rewrite N.mul_1_l in Hn. cbn [varint take_var]. replace (n <? 128) with true by lia. cbn [app].
    replace (n <? 128) with true by lia. replace (lastmax <? n) with false by lia. reflexivity.
  - rewrite Nat2N.inj_succ, N.pow_succ_r' in Hn.
    (* [k] keeps [cbn] from unfolding the recursive call as well *)
    remember (S m) as k. cbn [varint]. destruct (n <? 128) eqn:E; cbn [app take_var].
    + rewrite E. subst k. reflexivity.
    + replace (128 + n mod 128 <? 128) with false by lia. subst k. rewrite IH by lia. do 2 f_equal. lia.
Qed.

Lemma take_u32_put : forall n r, n < 2 ^ 32 -> take_u32 (put_u32 n ++ r) = Some (n, r).
Proof. intros n r H. change (2 ^ 32) with (128 ^ N.of_nat 4 * (15 + 1)) in H. exact (take_var_varint 15 eq_refl 4 n r H). Qed.

Lemma take_u64_put : forall n r, n < 2 ^ 64 -> take_u64 (put_u64 n ++ r) = Some (n, r).
Proof. intros n r H. change (2 ^ 64) with (128 ^ N.of_nat 9 * (1 + 1)) in H. exact (take_var_varint 1 eq_refl 9 n r H). Qed.

Lemma take_n_app : forall n a r, len a = n -> take_n n (a ++ r) = Some (a, r).
Proof.
  intros n a r <-. unfold take_n, len. rewrite app_length, Nat2N.id, firstn_len_app, skipn_len_app.
  destruct (N.leb_spec (N.of_nat (length a)) (N.of_nat (length a + length r))); [reflexivity|lia].
Qed.

Theorem parse_encode : forall f extra, shape f -> parse_file (encode_file f ++ extra) = Some f.
Proof.
  intros [v cfg salt nonce cr up sz tag ct] extra
         (Hv & (c1 & c2 & c3 & c4 & Hc & H1 & H2 & H3 & H4) & Hs & Hn & Hcr & Hup & Hsz & Ht & Hct).
  cbn [f_cfg] in Hc. subst cfg. unfold encode_file, parse_file.
  cbn [f_version f_cfg f_salt f_nonce f_created f_updated f_size f_tag f_ct map concat].
  rewrite <- !app_assoc, app_nil_l.
  (* field after field, each reader undoes its writer: version and configuration,
     salt and nonce, the three u64s, the tag field, the length-prefixed ciphertext *)
  do 5 (rewrite take_u32_put by assumption; cbn [bind]).
  do 2 (rewrite take_n_app by assumption; cbn [bind]).
  do 3 (rewrite take_u64_put by assumption; cbn [bind]).
  rewrite take_n_app by assumption; cbn [bind].
  rewrite take_u64_put by assumption; cbn [bind].
  rewrite take_n_app by reflexivity. reflexivity.
Qed.

Lemma toy_kdf_ideal : ideal_kdf toy_kdf.
Proof. intros l p s l' p' s' [= -> -> ->]. auto. Qed.

Lemma toy_vf_ideal : ideal_vf toy_vf.
Proof. intros p q H. exact H. Qed.

Lemma unflat_flat : forall m fuel, (length (flat m) < fuel)%nat -> unflat fuel (flat m) = Some m.
Proof.
  induction m as [|[a b] t IH]; intros fuel H; destruct fuel as [|f]; try (cbn in H; lia); [reflexivity|].
  cbn [flat unflat]. cbn in H. rewrite IH by lia. reflexivity.
Qed.

Lemma unflat_inv : forall fuel bs m, unflat fuel bs = Some m -> bs = flat m.
Proof.
  induction fuel as [|f IH]; intros bs m H; [discriminate|].
  destruct bs as [|a [|b t]]; cbn in H; try discriminate.
  - injection H as <-. reflexivity.
  - destruct (unflat f t) as [pl|] eqn:E; [|discriminate]. injection H as <-. rewrite (IH _ _ E). reflexivity.
Qed.

(* a length-prefixed string can be split off in one way only *)
Lemma len_prefix_inj : forall (a a' r r' : bytes), len a :: a ++ r = len a' :: a' ++ r' -> a = a' /\ r = r'.
Proof. intros a a' r r' [= Hl H]. apply Nat2N.inj in Hl. exact (app_inj_len _ _ _ _ Hl H). Qed.

Lemma bytes_eqb_eq : forall a b, bytes_eqb a b = true <-> a = b.
Proof. apply (list_eqb_eq N.eqb); [exact N.eqb_eq|intros [|? ?] [|? ?]; reflexivity]. Qed.

Lemma toy_aead_ideal : ideal_aead toy_enc toy_dec.
Proof.
  assert (Hdec : forall k n m, toy_dec k n (toy_enc k n m) = Some m).
  { intros k n m. unfold toy_dec, toy_enc. rewrite firstn_len_app, (proj2 (bytes_eqb_eq _ _) eq_refl), skipn_len_app.
    apply unflat_flat. rewrite app_length. lia. }
  split; [exact Hdec|split].
  - intros k n c m H. unfold toy_dec in H.
    destruct (bytes_eqb (firstn (length (toy_pre k n)) c) (toy_pre k n)) eqn:E; [|discriminate].
    apply bytes_eqb_eq in E. apply unflat_inv in H. unfold toy_enc. rewrite <- E, <- H. symmetry. apply firstn_skipn.
  - (* key and nonce are length-prefixed; the plaintext comes back by decryption *)
    intros k n m k' n' m' H. pose proof (Hdec k n m) as E. rewrite H in E.
    unfold toy_enc, toy_pre in H. cbn [app] in H. rewrite <- !app_assoc in H.
    apply len_prefix_inj in H. destruct H as [-> H]. apply len_prefix_inj in H. destruct H as [-> _].
    rewrite Hdec in E. injection E as ->. auto.
Qed.
