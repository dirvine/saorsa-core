(* About Model/Routing.v (C02; reused by C16).  The table invariant [Inv] holds after every history
   because every operation acts through table_add and table_remove ([run_preserves]).  The answer
   of the bucket walk is characterised as [nearest]: the n entries nearest to the key, nearest
   first; such a list is unique, the sorted whole table cut at n is one, and so is the sorted
   walk result, since the walk leaves out only entries farther than the n it holds. *)
From Coq Require Import Sorting.Mergesort Sorting.Sorted Permutation RelationClasses.
From SV Require Import Lib.Base Lib.ListAux Lib.Bytes Lib.Xor Lib.Isort Gen.RoutingConsts Model.Routing.
Local Open Scope N_scope.

Lemma expansion_ge_1 : 1 <= RT_CANDIDATE_EXPANSION_FACTOR.
Proof. discriminate. Qed.

Lemma bucket_count_256 : RT_BUCKET_COUNT = 256.
Proof. reflexivity. Qed.

Lemma filter_length_le : forall {A} (f : A -> bool) l, (length (filter f l) <= length l)%nat.
Proof. induction l as [|a l IH]; cbn [filter length]; [lia|]. destruct (f a); cbn [length]; lia. Qed.

Lemma filter_partition_perm : forall {A} (f : A -> bool) l,
  Permutation l (filter f l ++ filter (fun x => negb (f x)) l).
Proof.
  induction l as [|x l IH]; cbn [filter]; [constructor|].
  destruct (f x); cbn [negb app]; [apply perm_skip, IH|].
  apply Permutation_cons_app, IH.
Qed.

(* each model has its own copy [f] of "the first n of a list" *)
Lemma take_like_firstn {A} (f : N -> list A -> list A) :
  (forall n l, f n l = match l with [] => [] | x :: tl => if n =? 0 then [] else x :: f (n - 1) tl end) ->
  forall l n, f n l = firstn (N.to_nat n) l.
Proof.
  intros Hf. induction l as [|x tl IH]; intro n; rewrite Hf; [rewrite firstn_nil; reflexivity|].
  destruct (N.eqb_spec n 0) as [->|E]; [reflexivity|].
  replace (N.to_nat n) with (S (N.to_nat (n - 1))) by lia. cbn [firstn]. rewrite IH. reflexivity.
Qed.

Lemma takeN_firstn : forall l n, takeN n l = firstn (N.to_nat n) l.
Proof. apply take_like_firstn. intros n []; reflexivity. Qed.

Lemma in_ids : forall x l, In x l -> In (n_id x) (ids l).
Proof. intros x l. exact (in_map n_id l x). Qed.

Lemma in_ids_inv : forall i l, In i (ids l) -> exists x, In x l /\ n_id x = i.
Proof. intros i l H. apply in_map_iff in H. destruct H as [x [E I]]. exists x. auto. Qed.

Lemma nodup_ids_nodup : forall l, NoDup (ids l) -> NoDup l.
Proof. intros l. apply NoDup_map_inv. Qed.

Lemma nodup_ids_inj : forall l x y, NoDup (ids l) -> In x l -> In y l -> n_id x = n_id y -> x = y.
Proof.
  induction l as [|a l IH]; intros x y H Ix Iy E; [contradiction|].
  inversion H; subst. destruct Ix as [Ix|Ix], Iy as [Iy|Iy]; subst.
  - reflexivity.
  - exfalso. apply H2. rewrite E. apply in_ids. exact Iy.
  - exfalso. apply H2. rewrite <- E. apply in_ids. exact Ix.
  - apply IH; assumption.
Qed.

Lemma nodup_ids_app : forall a b, NoDup (ids a) -> NoDup (ids b) ->
  (forall x y, In x a -> In y b -> n_id x <> n_id y) -> NoDup (ids (a ++ b)).
Proof.
  intros a b Ha Hb D. unfold ids. rewrite map_app. apply NoDup_app_iff. repeat split; [exact Ha|exact Hb|].
  intros i Ia Ib. apply in_ids_inv in Ia. apply in_ids_inv in Ib. destruct Ia as [x [Ix <-]], Ib as [y [Iy E]].
  exact (D x y Ix Iy (eq_sym E)).
Qed.

(* a part of a list without repeated ids has none *)
Lemma nodup_ids_part : forall l a b, Permutation l (a ++ b) -> NoDup (ids l) -> NoDup (ids a).
Proof.
  intros l a b P H. apply (NoDup_app_l _ (ids b)). unfold ids. rewrite <- map_app.
  eapply Permutation_NoDup; [apply Permutation_map, P|exact H].
Qed.

Lemma nodup_ids_filter : forall f l, NoDup (ids l) -> NoDup (ids (filter f l)).
Proof. intros f l. apply nodup_ids_part with (1 := filter_partition_perm f l). Qed.

Lemma nodup_ids_firstn : forall n l, NoDup (ids l) -> NoDup (ids (firstn n l)).
Proof. intros n l. apply (nodup_ids_part l _ (skipn n l)). rewrite firstn_skipn. reflexivity. Qed.

(* dropping one id removes at most one entry, and none if the id is absent *)
Lemma filter_absent_id : forall r l, ~ In r (ids l) -> filter (fun x => negb (n_id x =? r)) l = l.
Proof.
  intros r l. induction l as [|a l IH]; intros H; [reflexivity|]. cbn [filter].
  destruct (N.eqb_spec (n_id a) r) as [E|Ne]; cbn [negb].
  - exfalso. apply H. left. exact E.
  - f_equal. apply IH. intro G. apply H. right. exact G.
Qed.

Lemma filter_one_id_length : forall r l, NoDup (ids l) ->
  (length l <= S (length (filter (fun x => negb (N.eqb (n_id x) r)) l)))%nat.
Proof.
  intros r l. induction l as [|a l IH]; intros ND; cbn [filter length]; [lia|].
  inversion ND as [|? ? Na ND']; subst.
  destruct (N.eqb_spec (n_id a) r) as [E|Ne]; cbn [negb length].
  - rewrite filter_absent_id; [lia|]. rewrite <- E. exact Na.
  - specialize (IH ND'). lia.
Qed.

Definition node_eq_dec : forall a b : node, {a = b} + {a <> b}.
Proof. decide equality; apply N.eq_dec. Defined.

Lemma node_eqb_eq : forall a b, node_eqb a b = true <-> a = b.
Proof.
  intros [i p] [j q]. unfold node_eqb. cbn [n_id n_pl]. rewrite andb_true_iff, !N.eqb_eq.
  split; [intros [-> ->]; reflexivity|intros E; inversion E; auto].
Qed.

Definition dlt (key : N) (a b : node) : Prop := dist key (n_id a) < dist key (n_id b).

Lemma dlt_irrefl : forall key a, ~ dlt key a a.
Proof. unfold dlt. intros. lia. Qed.

Lemma sorted_unique : forall key l1 l2,
  StronglySorted (dlt key) l1 -> StronglySorted (dlt key) l2 ->
  (forall x, In x l1 <-> In x l2) -> l1 = l2.
Proof.
  intros key l1 l2 S1 S2 E. apply (sorted_perm_unique (dlt key)); [|  |exact S1|exact S2].
  - unfold dlt. intros. lia.
  - apply NoDup_Permutation; [eapply ss_nodup, S1|eapply ss_nodup, S2|exact E]; apply dlt_irrefl.
Qed.

Lemma sort_perm : forall key l, Permutation l (sort_by_dist key l).
Proof.
  intros key l. unfold sort_by_dist.
  rewrite <- (map_id l) at 1. rewrite <- (map_map (with_dist key) snd).
  apply Permutation_map. apply DistSort.Permuted_sort.
Qed.

Lemma sort_in : forall key l x, In x (sort_by_dist key l) <-> In x l.
Proof. intros. split; apply Permutation_in; [apply Permutation_sym|]; apply sort_perm. Qed.

Lemma sort_length : forall key l, length (sort_by_dist key l) = length l.
Proof. intros. symmetry. apply Permutation_length, sort_perm. Qed.

Lemma sort_ids_nodup : forall key l, NoDup (ids l) -> NoDup (ids (sort_by_dist key l)).
Proof. intros key l H. eapply Permutation_NoDup; [|exact H]. apply Permutation_map, sort_perm. Qed.

Local Instance leb_trans : Transitive (fun x y : N * node => is_true (DistOrder.leb x y)).
Proof. intros a b c. unfold is_true, DistOrder.leb. rewrite !N.leb_le. lia. Qed.

(* the pairs keep their distance as first component, and distinct ids are at distinct distances *)
Lemma sort_sorted : forall key l, NoDup (ids l) -> StronglySorted (dlt key) (sort_by_dist key l).
Proof.
  intros key l ND. apply sort_ids_nodup with (key := key) in ND. unfold sort_by_dist in *.
  pose proof (DistSort.StronglySorted_sort (map (with_dist key) l) leb_trans) as S.
  assert (W : Forall (fun p => fst p = dist key (n_id (snd p))) (DistSort.sort (map (with_dist key) l))).
  { eapply Permutation_Forall; [apply DistSort.Permuted_sort|]. apply Forall_map, Forall_forall. reflexivity. }
  induction S as [|p s S IH F]; cbn [map ids] in *; [constructor|].
  inversion W as [|? ? Wp Ws]; inversion ND as [|? ? NI ND']; subst. constructor; [apply IH; assumption|].
  apply Forall_map. rewrite Forall_forall in *. intros q Iq. specialize (F q Iq). apply N.leb_le in F.
  rewrite Wp, (Ws q Iq) in F. unfold dlt.
  assert (dist key (n_id (snd p)) <> dist key (n_id (snd q))); [|lia].
  intro E. apply dist_inj in E. apply NI. rewrite E. apply in_ids, in_map, Iq.
Qed.

(* "the n entries of l nearest to key, nearest first": what both the table's answers and
   the manager's replies are *)
Definition nearest (key : N) (l : list node) (n : nat) (r : list node) : Prop :=
  StronglySorted (dlt key) r /\
  (forall x, In x r -> In x l) /\
  length r = min n (length l) /\
  (forall x y, In x r -> In y l -> ~ In y r -> dlt key x y).

Lemma nearest_firstn : forall key l n, NoDup (ids l) -> nearest key l n (firstn n (sort_by_dist key l)).
Proof.
  intros key l n ND. pose proof (sort_sorted key l ND) as S. repeat split.
  - apply StronglySorted_firstn, S.
  - intros x I. apply In_firstn, sort_in in I. exact I.
  - rewrite firstn_length, sort_length. reflexivity.
  - intros x y Ix Iy Ny. apply (ss_cut _ n _ x y S Ix).
    apply (sort_in key) in Iy. rewrite <- (firstn_skipn n) in Iy. apply in_app_iff in Iy. tauto.
Qed.

(* two such lists have the same members: one member more in r would make r the longer *)
Lemma nearest_incl : forall key l n r r', nearest key l n r -> nearest key l n r' -> incl r r'.
Proof.
  intros key l n r r' [S [Sub [Len Far]]] [S' [Sub' [Len' Far']]] x Ix.
  destruct (in_dec node_eq_dec x r') as [H|H]; [exact H|exfalso].
  assert (L : (length (x :: r') <= length r)%nat).
  { apply NoDup_incl_length.
    - constructor; [exact H|]. exact (ss_nodup _ _ (dlt_irrefl key) S').
    - intros y [<-|Iy]; [exact Ix|]. destruct (in_dec node_eq_dec y r) as [G|G]; [exact G|exfalso].
      pose proof (Far x y Ix (Sub' y Iy) G). pose proof (Far' y x Iy (Sub x Ix) H). unfold dlt in *. lia. }
  cbn [length] in L. lia.
Qed.

Lemma nearest_unique : forall key l n r r', nearest key l n r -> nearest key l n r' -> r = r'.
Proof.
  intros key l n r r' H H'. apply (sorted_unique key); [apply H|apply H'|].
  split; apply (nearest_incl key l n); assumption.
Qed.

(* a part W of l that leaves out only entries farther than n entries it holds has the same n nearest *)
Lemma nearest_part : forall key l W n r, NoDup W -> NoDup l -> incl W l ->
  (forall x, In x l -> ~ In x W -> (n <= length W)%nat /\ forall w, In w W -> dlt key w x) ->
  nearest key W n r -> nearest key l n r.
Proof.
  intros key l W n r NW NL Sub Far [S [SubW [Len FarW]]]. repeat split.
  - exact S.
  - intros x I. apply Sub, SubW, I.
  - rewrite Len. pose proof (NoDup_incl_length NW Sub).
    destruct (Nat.le_gt_cases n (length W)) as [Le|Gt]; [lia|].
    assert (Inc : incl l W).
    { intros x Ix. destruct (in_dec node_eq_dec x W) as [G|G]; [exact G|]. destruct (Far x Ix G). lia. }
    pose proof (NoDup_incl_length NL Inc). lia.
  - intros x y Ix Iy Ny. destruct (in_dec node_eq_dec y W) as [G|G]; [apply FarW; assumption|].
    apply (Far y Iy G), SubW, Ix.
Qed.

Definition Inv (t : table) : Prop :=
  key_ok (t_local t) /\
  (forall i x, In x (t_buckets t i) ->
     key_ok (n_id x) /\ n_id x <> t_local t /\ bucket_index (t_local t) (n_id x) = i) /\
  (forall i, NoDup (ids (t_buckets t i))) /\
  (forall i, N.of_nat (length (t_buckets t i)) <= t_cap t).

Lemma inv_empty : forall l cap, key_ok l -> Inv (empty_table l cap).
Proof.
  intros l cap H. unfold Inv, empty_table. cbn. repeat split; try contradiction; try constructor; try assumption. lia.
Qed.

Lemma without_id_in : forall id b x, In x (without_id id b) <-> In x b /\ n_id x <> id.
Proof.
  intros. unfold without_id. rewrite filter_In, negb_true_iff, N.eqb_neq. reflexivity.
Qed.

Lemma bucket_add_in : forall cap b x b', bucket_add cap b x = Some b' ->
  forall y, In y b' -> In y b \/ y = x.
Proof.
  unfold bucket_add. intros cap b x b' H y Iy. destruct (find _ b) as [old|] eqn:F.
  - injection H as <-. left. apply in_app_iff in Iy. destruct Iy as [Iy|[<-|[]]].
    + apply without_id_in in Iy. tauto.
    + apply (find_some _ _ F).
  - destruct (_ <? cap); [|discriminate]. injection H as <-.
    apply in_app_iff in Iy. destruct Iy as [Iy|[<-|[]]]; auto.
Qed.

Lemma bucket_add_good : forall cap b x b',
  NoDup (ids b) -> N.of_nat (length b) <= cap -> bucket_add cap b x = Some b' ->
  NoDup (ids b') /\ N.of_nat (length b') <= cap.
Proof.
  unfold bucket_add. intros cap b x b' ND L H. destruct (find _ b) as [old|] eqn:F.
  - apply find_some in F. destruct F as [Io Eo]. apply N.eqb_eq in Eo. injection H as <-.
    assert (N' : NoDup (ids (without_id (n_id x) b ++ [old]))).
    { apply nodup_ids_app; [apply nodup_ids_filter, ND|constructor; [intros []|constructor]|].
      intros y z Iy [<-|[]]. apply without_id_in in Iy. rewrite Eo. apply Iy. }
    split; [exact N'|].
    (* a refresh only reorders entries of b *)
    assert ((length (without_id (n_id x) b ++ [old]) <= length b)%nat); [|lia].
    apply NoDup_incl_length; [apply nodup_ids_nodup, N'|]. intros y Iy.
    apply in_app_iff in Iy. destruct Iy as [Iy|[<-|[]]]; [apply without_id_in in Iy; tauto|exact Io].
  - destruct (N.ltb_spec (N.of_nat (length b)) cap); [|discriminate]. injection H as <-. split.
    + apply nodup_ids_app; [exact ND|constructor; [intros []|constructor]|].
      intros y z Iy [<-|[]]. apply N.eqb_neq. apply (find_none _ _ F y Iy).
    + rewrite app_length. cbn [length]. lia.
Qed.

Lemma inv_set_bucket : forall t i b,
  Inv t ->
  (forall x, In x b -> key_ok (n_id x) /\ n_id x <> t_local t /\ bucket_index (t_local t) (n_id x) = i) ->
  NoDup (ids b) -> N.of_nat (length b) <= t_cap t ->
  Inv (set_bucket t i b).
Proof.
  intros t i b [Hl [Hp [Hn Hc]]] Pb Nb Cb. unfold Inv, set_bucket. cbn [t_local t_cap t_buckets].
  split; [exact Hl|]. split; [|split]; intro j; destruct (N.eqb_spec j i) as [->|_]; auto.
Qed.

Lemma inv_table_add : forall t x, Inv t -> key_ok (n_id x) -> Inv (fst (table_add t x)).
Proof.
  intros t x I Kx. unfold table_add.
  destruct (N.eqb_spec (n_id x) (t_local t)) as [E|Ne]; [exact I|].
  destruct (bucket_add _ _ x) as [b'|] eqn:B; [|exact I].
  cbn [fst]. pose proof I as [Hl [Hp [Hn Hc]]].
  destruct (bucket_add_good _ _ _ _ (Hn _) (Hc _) B) as [N' C'].
  apply inv_set_bucket; try assumption.
  intros y Iy. destruct (bucket_add_in _ _ _ _ B y Iy) as [Iy'| ->]; [apply Hp, Iy'|auto].
Qed.

Lemma inv_table_remove : forall t id, Inv t -> Inv (table_remove t id).
Proof.
  intros t id I. unfold table_remove, without_id. pose proof I as [Hl [Hp [Hn Hc]]].
  apply inv_set_bucket; [exact I| |apply nodup_ids_filter, Hn|].
  - intros x Ix. apply filter_In in Ix. apply Hp, Ix.
  - specialize (Hc (bucket_index (t_local t) id)).
    pose proof (filter_length_le (fun y => negb (n_id y =? id)) (t_buckets t (bucket_index (t_local t) id))). lia.
Qed.

Lemma run_cons_fst : forall t o ops, fst (run t (o :: ops)) = fst (run (fst (step t o)) ops).
Proof. intros. cbn [run]. destruct (step t o) as [t1 r]. cbn [fst]. destruct (run t1 ops). reflexivity. Qed.

Lemma run_app_fst : forall ops1 ops2 t, fst (run t (ops1 ++ ops2)) = fst (run (fst (run t ops1)) ops2).
Proof.
  induction ops1 as [|o ops1 IH]; intros ops2 t; [reflexivity|].
  cbn [app]. rewrite !run_cons_fst. apply IH.
Qed.

(* the nodes an operation offers to the table: every operation changes it through table_add of
   these and table_remove only, so what both preserve every history preserves *)
Definition offered (o : op) : list node :=
  match o with Join l => l | Add x _ => [x] | _ => [] end.

Section Preserved.
  Variable A : node -> Prop.
  Variable Q : table -> Prop.
  Hypothesis Q_add : forall t x, A x -> Q t -> Q (fst (table_add t x)).
  Hypothesis Q_remove : forall t id, Q t -> Q (table_remove t id).

  Lemma join_preserves : forall l t, Forall A l -> Q t -> Q (fst (table_join t l)).
  Proof.
    induction l as [|x l IH]; intros t F H; cbn [table_join]; [exact H|].
    inversion F as [|? ? Ax Al]; subst. pose proof (Q_add t x Ax H) as H1.
    destruct (table_add t x) as [t1 []]; [apply IH; assumption|exact H1].
  Qed.

  Lemma step_preserves : forall t o, Forall A (offered o) -> Q t -> Q (fst (step t o)).
  Proof.
    intros t o F H. destruct o; cbn [step offered] in *; try exact H; try (apply Q_remove, H).
    - pose proof (join_preserves l t F H) as J. destruct (table_join t l). exact J.
    - inversion F as [|? ? Ax _]; subst. pose proof (Q_add t x Ax H) as J. unfold engine_add.
      destruct (_ || _); [|destruct gate; [|exact H]]; destruct (table_add t x); exact J.
  Qed.

  Lemma run_preserves : forall ops t, Forall (fun o => Forall A (offered o)) ops -> Q t -> Q (fst (run t ops)).
  Proof.
    induction ops as [|o ops IH]; intros t F H; [exact H|]. inversion F; subst.
    rewrite run_cons_fst. apply IH; [assumption|]. apply step_preserves; assumption.
  Qed.
End Preserved.

Definition op_ok (o : op) : Prop := op_okb o = true.

Lemma key_okb_ok : forall a, key_okb a = true <-> key_ok a.
Proof. intros. apply N.ltb_lt. Qed.

Lemma op_ok_offered : forall o, op_ok o -> Forall (fun x => key_ok (n_id x)) (offered o).
Proof.
  unfold op_ok. intros o K. destruct o; cbn [op_okb offered] in *; try constructor.
  - apply Forall_forall. intros y Iy. rewrite forallb_forall in K. apply key_okb_ok, K, Iy.
  - apply key_okb_ok, K.
  - constructor.
Qed.

Lemma run_inv : forall ops t, Inv t -> Forall op_ok ops ->
  Inv (fst (run t ops)) /\ t_cap (fst (run t ops)) = t_cap t /\ t_local (fst (run t ops)) = t_local t.
Proof.
  intros ops t I F.
  apply (run_preserves (fun x => key_ok (n_id x)) (fun t' => Inv t' /\ t_cap t' = t_cap t /\ t_local t' = t_local t)).
  - intros t1 x K [I1 E]. split; [apply inv_table_add; assumption|].
    unfold table_add. destruct (_ =? _); [exact E|]. destruct (bucket_add _ _ _); exact E.
  - intros t1 id [I1 E]. split; [apply inv_table_remove, I1|exact E].
  - eapply Forall_impl; [apply op_ok_offered|exact F].
  - auto.
Qed.

Lemma reach_inv : forall local ops, key_ok local -> Forall op_ok ops -> Inv (fst (run (start local) ops)).
Proof. intros. apply run_inv; [apply inv_empty|]; assumption. Qed.

Lemma in_bucket_indices : forall i, In i bucket_indices <-> i <= 255.
Proof.
  intros i. unfold bucket_indices. rewrite in_map_iff. split.
  - intros [n [E I]]. apply in_seq in I. lia.
  - intros H. exists (N.to_nat i). split; [lia|]. apply in_seq. lia.
Qed.

Lemma in_all_nodes_iff : forall t x, In x (all_nodes t) <-> exists i, i <= 255 /\ In x (t_buckets t i).
Proof.
  intros. unfold all_nodes. rewrite in_flat_map.
  split; intros [i H]; exists i; [rewrite <- in_bucket_indices|rewrite in_bucket_indices]; exact H.
Qed.

Lemma in_bucket : forall t i x, Inv t -> In x (t_buckets t i) ->
  In x (all_nodes t) /\ bucket_index (t_local t) (n_id x) = i.
Proof.
  intros t i x [_ [Hp _]] I. destruct (Hp i x I) as [_ [_ E]]. split; [|exact E].
  apply in_all_nodes_iff. exists i. split; [rewrite <- E; apply bucket_index_le|exact I].
Qed.

Lemma in_all_nodes_ok : forall t x, Inv t -> In x (all_nodes t) ->
  In x (t_buckets t (bucket_index (t_local t) (n_id x))) /\ key_ok (n_id x) /\ n_id x <> t_local t.
Proof.
  intros t x I H. apply in_all_nodes_iff in H. destruct H as [i [_ H]].
  destruct (proj1 (proj2 I) i x H) as [K [Ne E]]. rewrite E. auto.
Qed.

Lemma inv_all_nodup : forall t, Inv t -> NoDup (ids (all_nodes t)).
Proof.
  intros t I. unfold all_nodes.
  assert (ND : NoDup bucket_indices).
  { unfold bucket_indices. apply FinFun.Injective_map_NoDup; [|apply seq_NoDup]. intros a b E. lia. }
  induction ND as [|i idx Ni ND IH]; cbn [flat_map]; [constructor|].
  apply nodup_ids_app; [apply I|exact IH|]. intros x y Ix Iy E.
  apply in_flat_map in Iy. destruct Iy as [j [Ij Iy]].
  apply (in_bucket t i x I) in Ix. apply (in_bucket t j y I) in Iy.
  apply Ni. replace i with j; [exact Ij|]. destruct Ix as [_ <-], Iy as [_ <-]. rewrite E. reflexivity.
Qed.

Lemma inv_local_absent : forall t, Inv t -> ~ In (t_local t) (ids (all_nodes t)).
Proof.
  intros t I H. apply in_ids_inv in H. destruct H as [x [Ix Ex]].
  apply (in_all_nodes_ok t x I) in Ix. tauto.
Qed.

(* what table_add and table_remove do to the ids listed, and from it: a history that never offers
   [id] cannot make the table list it *)
Lemma in_all_nodes_set_bucket : forall t i b y,
  In y (all_nodes (set_bucket t i b)) -> In y (all_nodes t) \/ In y b.
Proof.
  intros t i b y. rewrite !in_all_nodes_iff. intros [j [Lj Iy]]. cbn [set_bucket t_buckets] in Iy.
  destruct (j =? i); [right; exact Iy|left; exists j; auto].
Qed.

Lemma table_add_sub : forall t x, incl (ids (all_nodes (fst (table_add t x)))) (ids (x :: all_nodes t)).
Proof.
  intros t x. apply incl_map. intro y. unfold table_add. destruct (_ =? _); [apply in_cons|].
  destruct (bucket_add _ _ x) as [b'|] eqn:B; cbn [fst]; [|apply in_cons]. intro H.
  apply in_all_nodes_set_bucket in H. destruct H as [H|H]; [right; exact H|].
  destruct (bucket_add_in _ _ _ _ B y H) as [H1|H1]; [right|left; auto].
  apply in_all_nodes_iff. eexists. split; [apply bucket_index_le|exact H1].
Qed.

Lemma table_remove_sub : forall t id, incl (ids (all_nodes (table_remove t id))) (ids (all_nodes t)).
Proof.
  intros t id. apply incl_map. intros y H. apply in_all_nodes_set_bucket in H. destruct H as [H|H]; [exact H|].
  apply without_id_in in H. apply in_all_nodes_iff. eexists. split; [apply bucket_index_le|apply H].
Qed.

Lemma table_remove_absent : forall t id, Inv t -> ~ In id (ids (all_nodes (table_remove t id))).
Proof.
  intros t id I H. apply in_ids_inv in H. destruct H as [y [Iy E]].
  apply (in_all_nodes_ok _ y (inv_table_remove t id I)) in Iy. destruct Iy as [Iy _].
  rewrite E in Iy. unfold table_remove in Iy. cbn [set_bucket t_buckets t_local] in Iy.
  rewrite N.eqb_refl in Iy. apply without_id_in in Iy. tauto.
Qed.

Lemma absent_preserved : forall id ops t, Forall (fun o => Forall (fun x => n_id x <> id) (offered o)) ops ->
  ~ In id (ids (all_nodes t)) -> ~ In id (ids (all_nodes (fst (run t ops)))).
Proof.
  intros id ops t. apply (run_preserves (fun x => n_id x <> id) (fun t => ~ In id (ids (all_nodes t)))).
  - intros t1 x Nx Ab H. apply table_add_sub in H. destruct H as [E|H]; [exact (Nx E)|exact (Ab H)].
  - intros t1 id' Ab H. exact (Ab (table_remove_sub t1 id' id H)).
Qed.

Section Walk.
  Variable t : table.
  Variable key need : N.
  Hypothesis HI : Inv t.
  Hypothesis Hkey : key_ok key.
  Let target := bucket_index (t_local t) key.
  Let bidx (x : node) := bucket_index (t_local t) (n_id x).

  (* the accumulator holds exactly the entries of the buckets whose index satisfies V, each once *)
  Definition holds (V : N -> Prop) (acc : list node) : Prop :=
    NoDup (ids acc) /\ forall x, In x acc <-> In x (all_nodes t) /\ V (bidx x).

  Lemma holds_ext : forall (V V' : N -> Prop) acc,
    (forall j, j <= 255 -> (V j <-> V' j)) -> holds V acc -> holds V' acc.
  Proof.
    intros V V' acc E [ND M]. split; [exact ND|]. intro x.
    rewrite M, (E (bidx x) (bucket_index_le _ _)). reflexivity.
  Qed.

  Lemma holds_add : forall (V : N -> Prop) acc a (c : bool), (c = true -> ~ V a) -> holds V acc ->
    holds (fun j => V j \/ (c = true /\ j = a)) (if c then acc ++ t_buckets t a else acc).
  Proof.
    intros V acc a c Hc [ND M]. destruct c.
    - assert (Ba : forall y, In y (t_buckets t a) <-> In y (all_nodes t) /\ bidx y = a).
      { intro y. split; [apply in_bucket, HI|]. intros [I <-]. apply in_all_nodes_ok; assumption. }
      split.
      + apply nodup_ids_app; [exact ND|apply HI|]. intros x y Ix Iy E. apply M in Ix. apply Ba in Iy.
        rewrite (nodup_ids_inj _ x y (inv_all_nodup t HI) (proj1 Ix) (proj1 Iy) E) in Ix.
        apply (Hc eq_refl). rewrite <- (proj2 Iy). apply Ix.
      + intro x. rewrite in_app_iff, M, Ba. intuition congruence.
    - split; [exact ND|]. intro x. rewrite M. intuition congruence.
  Qed.

  (* buckets visited once offsets 0 .. o-1 are done *)
  Definition vis (o j : N) : Prop := j < target + o /\ target < j + o.

  Lemma walk_step : forall o acc, holds (vis o) acc ->
    let acc1 := if target + o <? RT_BUCKET_COUNT then acc ++ t_buckets t (target + o) else acc in
    let acc2 := if (0 <? o) && (o <=? target) then acc1 ++ t_buckets t (target - o) else acc1 in
    holds (vis (o + 1)) acc2.
  Proof.
    intros o acc H. cbn zeta. rewrite bucket_count_256.
    apply (holds_add _ _ (target + o) (target + o <? 256)) in H; [|unfold vis; lia].
    apply (holds_add _ _ (target - o) ((0 <? o) && (o <=? target))) in H; [|unfold vis; lia].
    revert H. apply holds_ext. unfold vis. lia.
  Qed.

  (* at an early exit only the target bucket was visited, or every bucket above the target: an
     entry of a visited bucket is then nearer than any entry of an unvisited one *)
  Lemma exit_nearer : forall o w x, In w (all_nodes t) -> In x (all_nodes t) ->
    (o =? 0) || (RT_BUCKET_COUNT - 1 <=? target + o) = true ->
    vis (o + 1) (bidx w) -> ~ vis (o + 1) (bidx x) -> dlt key w x.
  Proof.
    intros o w x Iw Ix X Vw Vx.
    destruct (in_all_nodes_ok t x HI Ix) as [_ [Kx Lx]]. destruct (in_all_nodes_ok t w HI Iw) as [_ [Kw Lw]].
    pose proof (bucket_index_le (t_local t) (n_id x)). pose proof (bucket_index_le (t_local t) (n_id w)).
    rewrite bucket_count_256 in X. unfold vis, bidx, target in *.
    destruct (N.eqb_spec o 0) as [Z|Z].
    - apply (target_bucket_closest (t_local t) key (proj1 HI) Hkey); auto; lia.
    - apply (lower_bucket_farther (t_local t) key (proj1 HI) Hkey); auto; lia.
  Qed.

  (* what the walk returns: distinct table entries, and either everything or
     at least [need] entries all nearer than every entry left out *)
  Definition walk_post (W : list node) : Prop :=
    NoDup (ids W) /\
    (forall x, In x W -> In x (all_nodes t)) /\
    (forall x, In x (all_nodes t) -> ~ In x W ->
       need <= N.of_nat (length W) /\ forall w, In w W -> dlt key w x).

  Lemma walk_inv : forall len s acc, (s + len = 256)%nat -> holds (vis (N.of_nat s)) acc ->
    walk_post (walk t target need (map N.of_nat (seq s len)) acc).
  Proof.
    induction len as [|len IH]; intros s acc Hs H; cbn [seq map walk].
    - destruct H as [ND M]. split; [exact ND|]. split; [intros x I; apply M, I|].
      intros x Ix Nx. exfalso. apply Nx, M. split; [exact Ix|].
      pose proof (bucket_index_le (t_local t) (n_id x)). pose proof (bucket_index_le (t_local t) key).
      unfold vis, bidx, target. lia.
    - apply walk_step in H. cbn zeta in H. destruct ((need <=? _) && _) eqn:X.
      + apply andb_true_iff in X. destruct X as [Full X]. apply N.leb_le in Full.
        destruct H as [ND M]. split; [exact ND|]. split; [intros x I; apply M, I|].
        intros x Ix Nx. split; [exact Full|]. intros w Iw. apply M in Iw.
        apply (exit_nearer (N.of_nat s) w x); [apply Iw|exact Ix|exact X|apply Iw|]. intro V. apply Nx, M. auto.
      + apply (IH (S s)); [lia|]. replace (N.of_nat (S s)) with (N.of_nat s + 1) by lia. exact H.
  Qed.

  Lemma walk_spec : walk_post (walk t target need bucket_indices []).
  Proof.
    apply (walk_inv 256 0 []); [reflexivity|].
    split; [constructor|]. intro x. split; [intros []|]. unfold vis. lia.
  Qed.
End Walk.

Lemma closest_exact : forall t key count, Inv t -> key_ok key ->
  closest t key count = closest_spec t key count.
Proof.
  intros t key count I K. unfold closest, closest_spec, candidates. rewrite takeN_firstn.
  destruct (walk_spec t key (count * RT_CANDIDATE_EXPANSION_FACTOR) I K) as [ND [Sub Far]].
  pose proof (inv_all_nodup t I) as NA.
  apply (nearest_unique key (all_nodes t) (N.to_nat count)); [|apply nearest_firstn, NA].
  eapply nearest_part; [apply nodup_ids_nodup, ND|apply nodup_ids_nodup, NA|exact Sub| |apply nearest_firstn, ND].
  intros x Ix Nx. destruct (Far x Ix Nx) as [Hn Hf]. split; [|exact Hf].
  pose proof expansion_ge_1. nia.
Qed.

(* what "the first n of the sorted table" means; by [nearest_unique] a list with these
   properties is THE answer, whatever the sorting algorithm or the order in which buckets are
   visited *)
Lemma closest_meaning : forall t key count, Inv t -> key_ok key ->
  let res := closest t key count in
  N.of_nat (length res) = N.min count (size t) /\
  StronglySorted (dlt key) res /\
  NoDup (ids res) /\
  ~ In (t_local t) (ids res) /\
  (forall x, In x res -> In x (all_nodes t)) /\
  (forall x y, In x res -> In y (all_nodes t) -> ~ In y res -> dlt key x y).
Proof.
  intros t key count I K. cbn zeta. rewrite (closest_exact t key count I K). unfold closest_spec, size.
  pose proof (inv_all_nodup t I) as NA.
  destruct (nearest_firstn key _ (N.to_nat count) NA) as [S [Sub [Len Far]]].
  split; [lia|]. split; [exact S|]. split; [apply nodup_ids_firstn, sort_ids_nodup, NA|].
  split; [|split; assumption].
  intro H. exact (inv_local_absent t I (incl_map n_id Sub _ H)).
Qed.

Lemma dedupe_ids_nodup : forall l, NoDup (ids (dedupe_ids l)).
Proof.
  induction l as [|x l IH]; cbn [dedupe_ids ids map]; [constructor|].
  constructor.
  - intro H. apply in_ids_inv in H. destruct H as [y [Iy Ey]]. apply without_id_in in Iy. tauto.
  - apply nodup_ids_filter. exact IH.
Qed.

Lemma dedupe_ids_sub : forall l x, In x (dedupe_ids l) -> In x l.
Proof.
  induction l as [|a l IH]; intros x H; cbn [dedupe_ids] in H; [contradiction|].
  destruct H as [-> |H]; [left; reflexivity|]. apply without_id_in in H. right. apply IH. tauto.
Qed.

(* every key that occurs is represented, and by its FIRST occurrence *)
Lemma dedupe_ids_first : forall l x, In x l -> exists y, In y (dedupe_ids l) /\ n_id y = n_id x.
Proof.
  induction l as [|a l IH]; intros x H; [contradiction|]. cbn [dedupe_ids].
  destruct (N.eq_dec (n_id a) (n_id x)) as [E|Ne].
  - exists a. split; [left; reflexivity|exact E].
  - destruct H as [-> |H]; [congruence|]. destruct (IH x H) as [y [Iy Ey]].
    exists y. split; [|exact Ey]. right. apply without_id_in. split; [exact Iy|congruence].
Qed.

Lemma dedupe_ids_head : forall l1 l2 x, In x l1 -> NoDup (ids l1) -> In x (dedupe_ids (l1 ++ l2)).
Proof.
  induction l1 as [|a l1 IH]; intros l2 x H ND; [contradiction|]. cbn [app dedupe_ids].
  inversion ND as [|? ? Na ND']; subst.
  destruct H as [-> |H]; [left; reflexivity|]. right. apply without_id_in. split; [apply IH; assumption|].
  intro E. apply Na. rewrite <- E. apply in_ids. exact H.
Qed.

Lemma reply_nodes_eq : forall is_self requester key cap connected from_table,
  reply_nodes is_self requester key cap connected from_table =
  filter (fun x => negb (n_id x =? requester))
    (firstn (N.to_nat cap) (sort_by_dist key (known_others is_self connected from_table))).
Proof. intros. unfold reply_nodes, local_closest. rewrite takeN_firstn. reflexivity. Qed.

Lemma nodes_eqb_eq : forall a b, nodes_eqb a b = true -> a = b.
Proof. intros a b. apply (list_eqb_eq node_eqb nodes_eqb node_eqb_eq). intros [|x a'] [|y b']; reflexivity. Qed.

Lemma existsb_node_in : forall x l, existsb (node_eqb x) l = true -> In x l.
Proof. intros x l H. apply existsb_exists in H. destruct H as [y [Hy E]]. apply node_eqb_eq in E. subst. exact Hy. Qed.

Lemma nodup_N_spec : forall l, nodup_N l = true <-> NoDup l.
Proof.
  induction l as [|a l IH]; cbn [nodup_N]; [split; [constructor|reflexivity]|].
  rewrite andb_true_iff, negb_true_iff, IH, NoDup_cons_iff, <- not_true_iff_false, existsb_exists.
  split; intros [H1 H2]; (split; [|exact H2]); intro H; apply H1.
  - exists a. split; [exact H|apply N.eqb_refl].
  - destruct H as [b [Ib Eb]]. apply N.eqb_eq in Eb. subst. exact Ib.
Qed.
