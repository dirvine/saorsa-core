(* C20, Model/Liveness.v.  Time: the timed loop is the C01 loop with a ghost clock that each
   iteration advances by at most D ([loop_t_spec]).  Locks: in a deadlocked state take the
   highest lock anybody asks for; its holder obeys the rank discipline and is stuck too, so it
   asks for a higher one ([no_deadlock]); the discipline is preserved by every step. *)
From SV Require Import Lib.Base Model.Lookup Model.Liveness.
Local Open Scope N_scope.

Lemma max_exists (l : list N) : l <> [] -> exists m, In m l /\ forall x, In x l -> x <= m.
Proof.
  induction l as [|a [|b l] IH]; [congruence| |]; intros _.
  - exists a. split; [left; reflexivity|]. intros x [<-|[]]. lia.
  - destruct IH as (m & Hin & Hmax); [discriminate|].
    exists (N.max a m). split.
    + destruct (N.max_spec a m) as [[_ ->]|[_ ->]]; [right; exact Hin|left; reflexivity].
    + intros x [<-|Hx]; [|specialize (Hmax x Hx)]; lia.
Qed.

Section TimedProofs.
  Variable keyof : pid -> N.
  Variable reply : pid -> option (list pid).
  Variable self : pid.
  Variable selfs_marked selfs_all : list pid.
  Variable target : N.
  Variable count : nat.
  Variable dur : pid -> N.

  Lemma batch_time_le D b : (forall p, dur p <= D) -> batch_time dur b <= D.
  Proof.
    intro dur_le. induction b as [|p b IH]; cbn [batch_time fold_right]; [lia|].
    fold (batch_time dur b). specialize (dur_le p). lia.
  Qed.

  (* the clock does not change what the lookup does, and each of the at most f iterations adds
     at most D to it *)
  Lemma loop_t_spec f : forall s t,
    fst (loop_t keyof reply selfs_all target count dur f s t) = loop keyof reply selfs_all target count f s
    /\ forall D, (forall p, dur p <= D) ->
       snd (loop_t keyof reply selfs_all target count dur f s t) <= t + N.of_nat f * D.
  Proof.
    induction f as [|f IH]; intros s t; [cbn [loop_t fst snd]; split; [reflexivity|lia]|].
    cbn [loop_t loop]. destruct (cand s) as [|c cs]; [cbn [fst snd]; split; [reflexivity|lia]|].
    destruct (pop_batch keyof target count (best s) (queried s) (c :: cs) (queued s) []) as [[c' q'] batch].
    destruct batch as [|b bs]; [cbn [fst snd]; split; [reflexivity|lia]|].
    split; [apply IH|]. intros D HD. eapply N.le_trans; [apply IH, HD|].
    pose proof (batch_time_le D (b :: bs) HD). lia.
  Qed.

  Lemma lookup_t_spec init :
    fst (lookup_t keyof reply self selfs_marked selfs_all target count dur init)
    = lookup keyof reply self selfs_marked selfs_all target count init
    /\ forall D, (forall p, dur p <= D) ->
       snd (lookup_t keyof reply self selfs_marked selfs_all target count dur init) <= lookup_bound D.
  Proof.
    unfold lookup_t, lookup, lookup_bound. split; [apply loop_t_spec|].
    intros D HD. eapply N.le_trans; [apply loop_t_spec, HD|]. lia.
  Qed.
End TimedProofs.

Lemma step_preserves_ok t : task_ok t = true -> task_ok (step_task t) = true.
Proof.
  unfold task_ok, step_task. destruct t as [h [|[l m|l] p]]; cbn [ordered held rest]; intro H;
    [exact H| |]; apply andb_true_iff in H; tauto.
Qed.

(* the lock a task is about to ask for *)
Definition awaited (t : task) : list N :=
  match rest t with Acq l _ :: _ => [l] | _ => [] end.

(* a task that cannot move asks, if it has work left, for a lock, and for none but held ones *)
Lemma stuck_awaits ts t : finished t || negb (enabled ts t) = true ->
  (finished t = false -> exists l, In l (awaited t)) /\
  forall l, In l (awaited t) -> exists u h, In u ts /\ In h (held u) /\ fst h = l.
Proof.
  unfold finished, enabled, awaited, held_against.
  destruct (rest t) as [|[l m|l] p]; cbn [orb]; intro H; [split; [discriminate|intros l []]| |discriminate].
  split; [exists l; left; reflexivity|]. intros l' [<-|[]].
  rewrite negb_involutive in H. apply existsb_exists in H as (u & Hu & H).
  apply existsb_exists in H as (h & Hh & H). apply andb_true_iff in H as [H _].
  apply N.eqb_eq in H. exists u, h. auto.
Qed.

(* a task obeying the discipline that holds a lock has work left, and the lock it asks for, if
   any, is a higher one *)
Lemma holder_awaits_higher u h : task_ok u = true -> In h (held u) ->
  finished u = false /\ forall l, In l (awaited u) -> fst h < l.
Proof.
  unfold task_ok, finished, awaited. destruct u as [hs [|[l m|l] p]]; cbn [held rest ordered].
  - destruct hs; [contradiction|discriminate].
  - intros [H _]%andb_true_iff Hin. split; [reflexivity|]. intros l' [<-|[]].
    rewrite forallb_forall in H. apply N.ltb_lt, H, Hin.
  - split; [reflexivity|intros l' []].
Qed.

(* Of the locks asked for in a deadlocked state take the highest.  Its holder is stuck too, asking
   for a still higher one. *)
Theorem no_deadlock ts : (forall t, In t ts -> task_ok t = true) -> deadlocked ts = false.
Proof.
  intro Hok. destruct (deadlocked ts) eqn:Hd; [exfalso|reflexivity].
  apply andb_true_iff in Hd as [Hex Hall]. rewrite forallb_forall in Hall.
  assert (Haw : forall t l, In t ts -> In l (awaited t) -> In l (flat_map awaited ts))
    by (intros t l Hin Hl; apply in_flat_map; exists t; auto).
  apply existsb_exists in Hex as (t & Hin & Hf). apply negb_true_iff in Hf.
  destruct (proj1 (stuck_awaits ts t (Hall t Hin)) Hf) as [l Hl]. apply (Haw t l Hin) in Hl.
  destruct (max_exists (flat_map awaited ts)) as (m & Hm & Hmax); [intro E; rewrite E in Hl; exact Hl|].
  apply in_flat_map in Hm as (t' & Hin' & Hm).
  destruct (proj2 (stuck_awaits ts t' (Hall t' Hin')) m Hm) as (u & h & Hu & Hh & <-).
  destruct (holder_awaits_higher u h (Hok u Hu) Hh) as [Hfu Hlt].
  destruct (proj1 (stuck_awaits ts u (Hall u Hu)) Hfu) as [l' Hl'].
  specialize (Hlt l' Hl'). specialize (Hmax l' (Haw u l' Hu Hl')). lia.
Qed.

(* the discipline is an invariant of execution: whichever task moves, everybody still obeys it *)
Lemma step_keeps_discipline ts t : (forall u, In u ts -> task_ok u = true) -> In t ts ->
  task_ok (step_task t) = true.
Proof. intros H Hin. apply step_preserves_ok, H, Hin. Qed.

(* every schedule: from a state in which all tasks obey the discipline, whatever enabled task
   moves next, no reachable state is a deadlock *)
Inductive reach : list task -> list task -> Prop :=
| reach_refl ts : reach ts ts
| reach_step pre t post ts' :
    enabled (pre ++ t :: post) t = true ->
    reach (pre ++ step_task t :: post) ts' -> reach (pre ++ t :: post) ts'.

Lemma reach_keeps_ok ts ts' : reach ts ts' ->
  (forall t, In t ts -> task_ok t = true) -> (forall t, In t ts' -> task_ok t = true).
Proof.
  induction 1 as [ts|pre t post ts' Hen Hr IH]; intro Hok; [exact Hok|].
  apply IH. intros u [Hin|[<-|Hin]]%in_app_or; [|apply step_preserves_ok|];
    apply Hok, in_or_app; cbn [In]; auto.
Qed.

Theorem reachable_never_deadlocks ts ts' :
  (forall t, In t ts -> task_ok t = true) -> reach ts ts' -> deadlocked ts' = false.
Proof. intros Hok Hr. apply no_deadlock. eapply reach_keeps_ok; eassumption. Qed.

(* fresh task instances of a list of programs *)
Definition spawn_all (ps : list prog) : list task := map (fun p => mkTask [] p) ps.

Lemma spawn_ok ps : (forall p, In p ps -> ordered [] p = true) ->
  forall t, In t (spawn_all ps) -> task_ok t = true.
Proof. intros H t [p [<- Hp]]%in_map_iff. exact (H p Hp). Qed.
