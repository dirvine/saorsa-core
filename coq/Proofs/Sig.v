(* Lemmas for C08 (Model/Sig.v): every identity the library constructs is a key pair; a
   verification routine is a chain of refusing tests before a verdict, and accepts iff every
   test passes ([guard_true], one test at a time); the walk over a write-authorisation tree
   is sound for every sound threshold rule, and ignores the rule on trees without a
   threshold node. *)
From SV Require Import Lib.Base Lib.Bytes Gen.SigConsts Model.Sig.
Local Open Scope N_scope.

Lemma bytes_eqb_eq a b : bytes_eqb a b = true <-> a = b.
Proof. apply (list_eqb_eq N.eqb); [exact N.eqb_eq|intros [|? ?] [|? ?]; reflexivity]. Qed.
Lemma bytes_eqb_spec a b : reflect (a = b) (bytes_eqb a b).
Proof. apply iff_reflect. symmetry. apply bytes_eqb_eq. Qed.

Lemma le_length w n : length (le w n) = w.
Proof. revert n. induction w as [|w IH]; intro n; cbn [le length]; [reflexivity|]. rewrite IH. reflexivity. Qed.

Lemma le_inj w : forall n m, n < 256 ^ N.of_nat w -> m < 256 ^ N.of_nat w -> le w n = le w m -> n = m.
Proof.
  induction w as [|w IH]; intros n m Hn Hm E.
  - apply N.lt_1_r in Hn, Hm. congruence.
  - rewrite Nat2N.inj_succ, N.pow_succ_r' in Hn, Hm. injection E as E0 E.
    apply IH in E; [|apply N.div_lt_upper_bound; [discriminate|assumption]..].
    rewrite (N.div_mod n 256), (N.div_mod m 256), E, E0 by discriminate. reflexivity.
Qed.

(* a test that refuses, in a chain of tests that ends in a verdict *)
Lemma guard_true (b : bool) (e v : verdict) :
  e <> VTrue -> (if b then e else v) = VTrue <-> b = false /\ v = VTrue.
Proof. intro He. destruct b; [split; [contradiction|intros [[=] _]]|tauto]. Qed.

Lemma if_true (b : bool) : (if b then VTrue else VFalse) = VTrue <-> b = true.
Proof. destruct b; split; congruence. Qed.

Lemma is_true_iff v : is_true v = true <-> v = VTrue.
Proof. destruct v; cbn; split; congruence. Qed.

Section Identity.
  Variable keygen : bytes -> ident.
  Variable kdf : bytes -> option bytes -> bytes -> nat -> bytes.

  Lemma import_export : keygen_sized keygen -> forall i, pair keygen i -> id_import (id_export i) = Some i.
  Proof.
    intros Hs i [xi <-]. destruct (Hs xi) as [Hp Hk]. unfold id_import, id_export. cbn [fst snd].
    rewrite Hp, Hk. destruct (keygen xi); reflexivity.
  Qed.

  Lemma import_export_id : forall i j, id_import (id_export i) = Some j -> j = i.
  Proof.
    intros [pk sk] j. unfold id_import, id_export. cbn [fst snd].
    destruct (sk_ok sk && pk_ok pk); intros [= <-]. reflexivity.
  Qed.

  Lemma constructed_pair : forall i, constructed keygen kdf i -> pair keygen i.
  Proof.
    intros i C. induction C as [xi|i C IH j E|seed|master path]; try (eexists; reflexivity).
    apply import_export_id in E. subst j. exact IH.
  Qed.
End Identity.

Lemma split_at_app : forall n pk sk, len pk = n -> split_at n (pk ++ sk) = (pk, sk).
Proof.
  intros n pk sk <-. unfold split_at, len. rewrite Nat2N.id, firstn_len_app, skipn_len_app. reflexivity.
Qed.

Lemma toy_correct : sig_correct toy_keygen toy_sign toy_vs3.
Proof.
  intros xi m r. unfold toy_keygen, toy_sign, toy_vs3. cbn [fst snd nth].
  rewrite !(proj2 (bytes_eqb_eq _ _) eq_refl). reflexivity.
Qed.

(* across address families the same key can only be bound twice by one message if it repeats
   itself with the period of the width difference (12 = 16 - 4 for IPv4 / IPv6) *)
Lemma ip_message_cross : forall d ip1 ip2 pk s1 t1 s2 t2,
  length ip2 = (length ip1 + d)%nat ->
  ip_message ip1 pk s1 t1 = ip_message ip2 pk s2 t2 ->
  forall i, (i + d < length pk)%nat -> nth (i + d) pk 0 = nth i pk 0.
Proof.
  intros d ip1 ip2 pk s1 t1 s2 t2 L E i Hi. unfold ip_message in E.
  (* the byte at position |ip2| + i: byte i + d of the key on the left, byte i on the right *)
  apply (f_equal (fun l => nth (length ip1 + (d + i)) l 0)) in E.
  rewrite app_nth2_plus, app_nth1 in E by lia.
  rewrite Nat.add_assoc, <- L, app_nth2_plus, app_nth1 in E by lia.
  rewrite Nat.add_comm. exact E.
Qed.

Section Glue.
  Variable H : bytes -> bytes.
  Variable vs3 : bytes -> bytes -> bytes -> verdict.
  Variable b64 : bytes -> option bytes.

  (* what the key owner ever signed as address bindings: (ip, salt, timestamp, signature) *)
  Definition binding := (bytes * bytes * N * bytes)%type.
  Definition b_ip (g : binding) := fst (fst (fst g)).
  Definition b_salt (g : binding) := snd (fst (fst g)).
  Definition b_ts (g : binding) := snd (fst g).
  Definition b_sig (g : binding) := snd g.

  Lemma key_valid_iff : forall k now,
    key_valid k now = true <-> k_from k <= now /\ (k_until k = 0 \/ now < k_until k).
  Proof.
    intros k now. unfold key_valid. change SIG_NO_EXPIRY with 0.
    rewrite andb_true_iff, orb_true_iff, N.leb_le, N.eqb_eq, N.ltb_lt. reflexivity.
  Qed.

  Lemma find_key_some : forall keys id k, find_key keys id = Some k -> In k keys /\ k_id k = id.
  Proof.
    intros keys id k E. apply find_some in E. destruct E as [Hin E].
    apply in_rev in Hin. apply bytes_eqb_eq in E. auto.
  Qed.

  Lemma verify_signature_iff : forall keys now key_id msg sig,
    verify_signature vs3 b64 keys now key_id msg sig = SOk true <->
    exists k pkb sb, find_key keys key_id = Some k /\ key_valid k now = true /\
      b64 (k_pub k) = Some pkb /\ b64 sig = Some sb /\ pk_ok pkb = true /\ sig_ok sb = true /\
      vs3 pkb msg sb = VTrue.
  Proof.
    intros keys now key_id msg sig. unfold verify_signature. split.
    - destruct (find_key keys key_id) as [k|]; [|discriminate].
      destruct (key_valid k now) eqn:E1; [|discriminate].
      destruct (b64 (k_pub k)) as [pkb|] eqn:E2; [|discriminate]. destruct (b64 sig) as [sb|]; [|discriminate].
      destruct (pk_ok pkb) eqn:E3; [|discriminate]. destruct (sig_ok sb) eqn:E4; [|discriminate].
      destruct (vs3 pkb msg sb) eqn:E5; try discriminate. intros _. exists k, pkb, sb. auto 10.
    - intros (k & pkb & sb & -> & -> & -> & -> & -> & -> & ->). reflexivity.
  Qed.

End Glue.

Section WauthInd.
  Variable P : wauth -> Prop.
  Hypothesis HS : forall pk, P (WSingle pk).
  Hypothesis HD : forall ks, P (WDelegated ks).
  Hypothesis HT : forall t total ks, P (WThreshold t total ks).
  Hypothesis HC : forall all l, Forall P l -> P (WComposite all l).
  Fixpoint wauth_ind' (a : wauth) : P a :=
    match a with
    | WSingle pk => HS pk
    | WDelegated ks => HD ks
    | WThreshold t total ks => HT t total ks
    | WComposite all l =>
        HC all l ((fix go (l : list wauth) : Forall P l :=
                     match l with
                     | [] => Forall_nil P
                     | x :: r => Forall_cons x (wauth_ind' x) (go r)
                     end) l)
    end.
End WauthInd.

Lemma all_v_true {A} (f : A -> verdict) l : all_v f l = VTrue <-> forall x, In x l -> f x = VTrue.
Proof.
  induction l as [|a l IH]; cbn [all_v In]; [split; [intros _ x []|reflexivity]|].
  destruct (f a) eqn:E; [rewrite IH; intuition (subst; auto)|..];
    (split; [discriminate|intro Hl; rewrite (Hl a) in E by auto; discriminate]).
Qed.

Lemma any_v_true {A} (f : A -> verdict) l : any_v f l = VTrue -> exists x, In x l /\ f x = VTrue.
Proof.
  induction l as [|a l IH]; cbn [any_v In]; [discriminate|].
  destruct (f a) eqn:E; intro V; [eauto| |discriminate]. destruct (IH V) as (x & Hx & Fx). eauto.
Qed.
(* ... and conversely when no member reports an error (an error that comes before the
   accepting member is the answer) *)
Lemma any_v_complete {A} (f : A -> verdict) l :
  (forall x, In x l -> f x <> VErr) -> (exists x, In x l /\ f x = VTrue) -> any_v f l = VTrue.
Proof.
  induction l as [|a l IH]; cbn [any_v In]; intros Hn (x & Hx & Fx); [contradiction|].
  destruct (f a) eqn:E; [reflexivity| |destruct (Hn a (or_introl eq_refl) E)].
  apply IH; [auto|]. destruct Hx as [<-|Hx]; [congruence|eauto].
Qed.

Lemma in_dedup : forall l x, In x (dedup l) -> In x l.
Proof.
  induction l as [|a l IH]; intros x Hx; cbn [dedup] in Hx; [exact Hx|].
  destruct (existsb (bytes_eqb a) l); [|destruct Hx as [->|Hx]]; cbn; auto.
Qed.
Lemma nodup_dedup : forall l, NoDup (dedup l).
Proof.
  induction l as [|a l IH]; cbn [dedup]; [constructor|].
  destruct (existsb (bytes_eqb a) l) eqn:E; [exact IH|]. constructor; [|exact IH].
  intro Hin. apply in_dedup in Hin. apply not_true_iff_false in E. apply E, existsb_exists.
  exists a. split; [exact Hin|apply bytes_eqb_eq; reflexivity].
Qed.

Section Auth.
  Variable vs3 : bytes -> bytes -> bytes -> verdict.
  Variable record : bytes.
  Variable sigs : list bytes.
  Notation authorised := (authorised vs3 record sigs).

  Lemma single_iff : forall pk,
    single_verify vs3 record sigs pk = VTrue <->
    exists s r, sigs = s :: r /\ pk_ok pk = true /\ len s = SIG_AUTH_SINGLE_SIG_LEN /\ vs3 pk record s = VTrue.
  Proof.
    intro pk. unfold single_verify. destruct sigs as [|s r]; [split; [discriminate|intros (? & ? & [=] & _)]|].
    rewrite !guard_true by discriminate. rewrite !negb_false_iff, N.eqb_eq.
    split; [eauto|intros (? & ? & [= <- <-] & C); exact C].
  Qed.

  Lemma delegated_iff : forall ks,
    delegated_verify vs3 record sigs ks = VTrue <->
    exists s r ak, sigs = s :: r /\ len s = SIG_AUTH_DELEG_SIG_LEN /\ In ak ks /\ pk_ok ak = true /\
                   vs3 ak record s = VTrue.
  Proof.
    intro ks. unfold delegated_verify.
    destruct sigs as [|s r]; [split; [discriminate|intros (? & ? & ? & [=] & _)]|].
    destruct ks as [|k ks']; [split; [discriminate|intros (? & ? & ? & _ & _ & [] & _)]|].
    rewrite guard_true, negb_false_iff, N.eqb_eq, if_true, existsb_exists by discriminate. split.
    - intros (L & ak & Hin & E). apply andb_true_iff in E. destruct E as [P V]. apply is_true_iff in V. eauto 8.
    - intros (? & ? & ak & [= <- <-] & L & Hin & P & V). split; [exact L|]. exists ak. rewrite P, V. auto.
  Qed.

  (* the repaired threshold rule accepts only with t distinct listed keys that each signed *)
  Lemma thr_spec_sound : forall t total ks,
    thr_spec vs3 record sigs t total ks = VTrue -> authorised (WThreshold t total ks).
  Proof.
    intros t total ks V. apply if_true, andb_true_iff in V. destruct V as [E1 E2]. apply N.leb_le in E1, E2.
    exists (valid_signers vs3 record sigs ks).
    split; [apply NoDup_filter, nodup_dedup|]. split; [exact E1|]. split; [exact E2|].
    intros k Hk. apply filter_In in Hk. destruct Hk as [Hk Hv]. split; [apply in_dedup, Hk|].
    apply andb_true_iff in Hv. destruct Hv as [_ Hv]. apply existsb_exists in Hv. destruct Hv as (s & Hin & Hv).
    apply andb_true_iff in Hv. exists s. split; [exact Hin|apply is_true_iff, Hv].
  Qed.

  Lemma authorised_all : forall l,
    authorised (WComposite true l) <-> forall x, In x l -> authorised x.
  Proof.
    intro l. rewrite <- Forall_forall. cbn [Sig.authorised].
    induction l as [|a l IH]; [symmetry; apply Forall_nil_iff|]. rewrite Forall_cons_iff, IH. reflexivity.
  Qed.
  Lemma authorised_any : forall l,
    authorised (WComposite false l) <-> exists x, In x l /\ authorised x.
  Proof.
    intro l. rewrite <- Exists_exists. cbn [Sig.authorised].
    induction l as [|a l IH]; [symmetry; apply Exists_nil|]. rewrite Exists_cons, IH. reflexivity.
  Qed.

  (* soundness of the tree walk for any sound threshold rule *)
  Lemma wverify_sound : forall thr,
    (forall t total ks, thr t total ks = VTrue -> authorised (WThreshold t total ks)) ->
    forall a, wverify vs3 record sigs thr a = VTrue -> authorised a.
  Proof.
    intros thr Hthr. induction a as [pk|ks|t total ks|all l IH] using wauth_ind'; intro V.
    - apply single_iff in V. destruct V as (s & r & E & _ & _ & V).
      exists s. split; [rewrite E; left; reflexivity|exact V].
    - apply delegated_iff in V. destruct V as (s & r & ak & E & _ & Hin & _ & V).
      exists ak. split; [exact Hin|]. exists s. split; [rewrite E; left; reflexivity|exact V].
    - apply Hthr, V.
    - rewrite Forall_forall in IH. destruct all; cbn [wverify] in V.
      + apply authorised_all. rewrite all_v_true in V. auto.
      + apply authorised_any. apply any_v_true in V. destruct V as (x & Hx & V). eauto.
  Qed.

  (* the code as it is: the threshold rule is irrelevant for trees without a threshold node *)
  Lemma wverify_thr_irrelevant : forall thr1 thr2 a, has_threshold a = false ->
    wverify vs3 record sigs thr1 a = wverify vs3 record sigs thr2 a.
  Proof.
    intros thr1 thr2. induction a as [pk|ks|t total ks|all l IH] using wauth_ind'; intro Hn;
      cbn [wverify]; try reflexivity; [discriminate|].
    cbn [has_threshold] in Hn.
    destruct all; induction IH as [|x r Hx _ IHr]; cbn [all_v any_v existsb] in *; try reflexivity;
      apply orb_false_iff in Hn; destruct Hn as [Hx' Hr]; rewrite (Hx Hx'), (IHr Hr); reflexivity.
  Qed.
End Auth.

(* toy witnesses for the update check: a pinned key, a signature text, and the four conjuncts of
   the check as booleans *)
Definition toy_key (from until : N) : pinned := mkPinned [107] (61 :: [7; 1]) from until.
Definition toy_sigtext : bytes := 61 :: [1; 1; 42].       (* "base64" of the toy signature of [42] under key 1 *)
(* sizes of the toy scheme are not ML-DSA's, so the witnesses are stated on the conjuncts *)
Definition upd_conj (H : bytes -> bytes) (vs3 : bytes -> bytes -> bytes -> verdict) (b64 : bytes -> option bytes)
  (keys : list pinned) (now : N) (contents expected key_id sig : bytes) : bool * bool * bool * bool :=
  (verify_checksum H contents expected,
   match find_key keys key_id with Some _ => true | None => false end,
   match find_key keys key_id with Some k => key_valid k now | None => false end,
   match find_key keys key_id with
   | Some k => match b64 (k_pub k), b64 sig with
               | Some pkb, Some sb => is_true (vs3 pkb contents sb)
               | _, _ => false
               end
   | None => false
   end).
