(* The generic postcard codec (Model/Postcard.v): what [decode] returns is a value of the type
   that the consumed bytes pay for ([decode_sound]), and [decode] inverts [encode] on every
   value of the type ([decode_encode]); each by one induction over the schema. *)
From SV Require Import Lib.Base Lib.Bytes Model.Postcard.
Local Open Scope N_scope.

Lemma Forall_forallb : forall {A} (f : A -> bool) (P : A -> Prop) l,
  Forall (fun x => f x = true -> P x) l -> forallb f l = true -> Forall P l.
Proof. intros A f P l H Hf. rewrite forallb_forall in Hf. rewrite Forall_forall in *. auto. Qed.

Lemma andb_drop : forall a x : bool, a = true -> a && x = x.
Proof. intros a x ->. reflexivity. Qed.

(* induction over the nested type [ty], with the hypothesis for every member of a list *)
Section ty_ind2.
  Variable P : ty -> Prop.
  Hypothesis HU8 : P U8.
  Hypothesis HVarU : forall b, P (VarU b).
  Hypothesis HVarI : forall b, P (VarI b).
  Hypothesis HBool : P Bool.
  Hypothesis HF64 : P F64.
  Hypothesis HStr : P Str.
  Hypothesis HBytes : P Bytes.
  Hypothesis HBytesN : forall n, P (BytesN n).
  Hypothesis HDur : P Dur.
  Hypothesis HSysTime : P SysTime.
  Hypothesis HSeq : forall t, P t -> P (Seq t).
  Hypothesis HOpt : forall t, P t -> P (Opt t).
  Hypothesis HTup : forall ts, Forall P ts -> P (Tup ts).
  Hypothesis HEnum : forall ts, Forall P ts -> P (Enum ts).
  Hypothesis HArr : forall n t, P t -> P (Arr n t).

  Fixpoint ty_ind2 (t : ty) : P t :=
    let fix go (ts : list ty) : Forall P ts :=
        match ts with
        | [] => Forall_nil P
        | t :: ts' => Forall_cons t (ty_ind2 t) (go ts')
        end in
    match t with
    | U8 => HU8 | VarU b => HVarU b | VarI b => HVarI b | Bool => HBool | F64 => HF64
    | Str => HStr | Bytes => HBytes | BytesN n => HBytesN n | Dur => HDur | SysTime => HSysTime
    | Seq t' => HSeq t' (ty_ind2 t')
    | Opt t' => HOpt t' (ty_ind2 t')
    | Tup ts => HTup ts (go ts)
    | Enum ts => HEnum ts (go ts)
    | Arr n t' => HArr n t' (ty_ind2 t')
    end.
End ty_ind2.

(* [lm] is the largest value allowed in the last of the [S m] positions *)
Lemma varint_rt : forall m lm n r, lm < 128 -> n < 128 ^ N.of_nat m * (lm + 1) ->
  dec_varint (S m) lm (enc_varint (S m) n ++ r) = Some (n, r).
Proof.
  induction m as [|m IH]; intros lm n r Hl Hn.
  - cbn [enc_varint dec_varint]. rewrite N.mul_1_l in Hn.
    replace (n <? 128) with true by lia. cbn [app].
    replace (n <? 128) with true by lia. replace (lm <? n) with false by lia. reflexivity.
  - rewrite Nat2N.inj_succ, N.pow_succ_r' in Hn.
    (* [k] keeps [cbn] from unfolding the recursive call as well *)
    remember (S m) as k. cbn [enc_varint]. destruct (n <? 128) eqn:E; cbn [app dec_varint].
    + rewrite E. subst k. reflexivity.
    + replace (n mod 128 + 128 <? 128) with false by lia. subst k. rewrite IH by lia.
      do 2 f_equal. lia.
Qed.

(* a decoded varint is below 128^positions, below 2^bits through the last-byte rule, and
   consumed at least one byte *)
Lemma dec_varint_spec : forall lm inp m n r, dec_varint (S m) lm inp = Some (n, r) ->
  n < 128 ^ N.of_nat m * (lm + 1) /\ (length r + 1 <= length inp)%nat.
Proof.
  induction inp as [|b inp IH]; intros m n r H; cbn [dec_varint] in H; [discriminate|].
  destruct (b <? 128) eqn:Eb.
  - destruct m as [|m]; cbn [Nat.eqb andb] in H.
    + destruct (lm <? b) eqn:E; inv H. cbn. lia.
    + inv H. rewrite Nat2N.inj_succ, N.pow_succ_r'. cbn [length].
      assert (0 < 128 ^ N.of_nat m) by (apply N.neq_0_lt_0, N.pow_nonzero; lia). nia.
  - destruct m as [|m]; [discriminate|].
    destruct (dec_varint (S m) lm inp) as [[v r']|] eqn:E; inv H. apply IH in E.
    rewrite Nat2N.inj_succ, N.pow_succ_r'. cbn [length]. lia.
Qed.

(* the real widths: ceil(bits/7) positions whose last holds the bits left over *)
Lemma bits_ok_shape : forall bits, bits_ok bits = true ->
  exists m, vmax bits = S m /\ vlast bits < 128 /\ 128 ^ N.of_nat m * (vlast bits + 1) = 2 ^ bits.
Proof.
  intros bits H. unfold bits_ok in H.
  assert (C : bits = 16 \/ bits = 32 \/ bits = 64 \/ bits = 128) by lia.
  destruct C as [-> | [-> | [-> | ->]]]; eexists; repeat split; reflexivity.
Qed.

Lemma dec_enc_u : forall bits n r, bits_ok bits = true -> n < 2 ^ bits ->
  dec_u bits (enc_u bits n ++ r) = Some (n, r).
Proof.
  intros bits n r Hb Hn. destruct (bits_ok_shape _ Hb) as (m & Em & Hl & Ep).
  unfold dec_u, enc_u. rewrite Em. apply varint_rt; [exact Hl|]. rewrite Ep. exact Hn.
Qed.

Lemma dec_u_spec : forall bits inp n r, bits_ok bits = true -> dec_u bits inp = Some (n, r) ->
  n < 2 ^ bits /\ (length r + 1 <= length inp)%nat.
Proof.
  intros bits inp n r Hb H. destruct (bits_ok_shape _ Hb) as (m & Em & _ & Ep).
  unfold dec_u in H. rewrite Em in H. rewrite <- Ep. exact (dec_varint_spec _ _ _ _ _ H).
Qed.

Lemma unzz_zz : forall bits z, unzz (zz bits z) = z.
Proof.
  intros bits z. unfold zz, unzz. destruct (0 <=? z)%Z eqn:E.
  - replace (Z.to_N (2 * z)) with (2 * Z.to_N z) by lia. rewrite N.even_mul. cbn [N.even orb]. lia.
  - replace (Z.to_N (-2 * z - 1)) with (2 * Z.to_N (- z - 1) + 1) by lia.
    rewrite N.even_add, N.even_mul. cbn [N.even orb Bool.eqb]. lia.
Qed.

Lemma pow2_half : forall bits, bits_ok bits = true -> Z.of_N (2 ^ bits) = (2 * 2 ^ (Z.of_N bits - 1))%Z.
Proof.
  intros bits H. rewrite N2Z.inj_pow, <- Z.pow_succ_r; [f_equal; lia|]. unfold bits_ok in H. lia.
Qed.

Lemma zz_bound : forall bits z, bits_ok bits = true ->
  (- 2 ^ (Z.of_N bits - 1) <= z < 2 ^ (Z.of_N bits - 1))%Z -> zz bits z < 2 ^ bits.
Proof. intros bits z Hb Hz. pose proof (pow2_half _ Hb). unfold zz. destruct (0 <=? z)%Z eqn:E; lia. Qed.

Lemma unzz_range : forall bits n, bits_ok bits = true -> n < 2 ^ bits ->
  (- 2 ^ (Z.of_N bits - 1) <= unzz n < 2 ^ (Z.of_N bits - 1))%Z.
Proof. intros bits n Hb Hn. pose proof (pow2_half _ Hb). unfold unzz. destruct (N.even n); lia. Qed.

Lemma take_n_app : forall bs r, take_n (N.of_nat (length bs)) (bs ++ r) = Some (bs, r).
Proof.
  intros bs r. unfold take_n. rewrite app_length. replace (_ <? _) with false by lia.
  rewrite Nat2N.id, firstn_len_app, skipn_len_app. reflexivity.
Qed.

Lemma take_n_len : forall n inp bs r, take_n n inp = Some (bs, r) ->
  length inp = (length bs + length r)%nat /\ N.of_nat (length bs) = n.
Proof.
  intros n inp bs r H. unfold take_n in H. destruct (_ <? n) eqn:E; inv H.
  rewrite firstn_length, skipn_length. lia.
Qed.

Lemma dec_lenbytes_rt : forall bs r, N.of_nat (length bs) <= U64MAX ->
  dec_lenbytes (enc_u 64 (N.of_nat (length bs)) ++ bs ++ r) = Some (bs, r).
Proof.
  intros bs r H. unfold dec_lenbytes. rewrite dec_enc_u by (reflexivity || (unfold U64MAX in H; lia)).
  apply take_n_app.
Qed.

Lemma dec_lenbytes_spec : forall inp bs r, dec_lenbytes inp = Some (bs, r) ->
  N.of_nat (length bs) <= U64MAX /\ (length r + length bs + 1 <= length inp)%nat.
Proof.
  intros inp bs r H. unfold dec_lenbytes in H.
  destruct (dec_u 64 inp) as [[len r0]|] eqn:E; [|discriminate].
  apply dec_u_spec in E; [|reflexivity]. apply take_n_len in H. unfold U64MAX. lia.
Qed.

Lemma dec_dur_rt : forall lim s n r, lim <= U64MAX -> s <= lim -> n < NANOS ->
  dec_dur lim (enc_u 64 s ++ enc_u 32 n ++ r) = Some (VDur s n, r).
Proof.
  intros lim s n r Hlim Hs Hn. unfold dec_dur, U64MAX, NANOS in *.
  rewrite !dec_enc_u by (reflexivity || lia). rewrite N.div_small, N.mod_small, N.add_0_r by exact Hn.
  replace (lim <? s) with false by lia. reflexivity.
Qed.

Lemma dec_dur_spec : forall lim inp v r, dec_dur lim inp = Some (v, r) ->
  exists s n, v = VDur s n /\ s <= lim /\ n < NANOS /\ (length r + 2 <= length inp)%nat.
Proof.
  intros lim inp v r H. unfold dec_dur in H.
  destruct (dec_u 64 inp) as [[s r0]|] eqn:E; [|discriminate].
  destruct (dec_u 32 r0) as [[n r1]|] eqn:E2; [|discriminate].
  destruct (lim <? _) eqn:El; inv H. apply dec_u_spec in E as [_ E], E2 as [_ E2]; try reflexivity.
  eexists _, _. split; [reflexivity|]. split; [lia|]. split; [apply N.mod_lt; discriminate|lia].
Qed.

(* the decoded value is one of the type, and the bytes consumed pay for its dynamically sized
   items, plus one when no value of the type is zero-sized *)
Definition sound (w : value -> bool) (b : nat) (d : decoder) : Prop := forall inp v r,
  d inp = Some (v, r) -> w v = true /\ (length r + elems v + b <= length inp)%nat.

Lemma dec_rep_sound : forall d w b, sound w b d -> forall k inp vs r, dec_rep d k inp = Some (vs, r) ->
  forallb w vs = true /\ length vs = k /\ (length r + elems (VTup vs) + k * b <= length inp)%nat.
Proof.
  intros d w b Hd. induction k as [|k IH]; intros inp vs r H; cbn [dec_rep] in H.
  - inv H. cbn. lia.
  - destruct (d inp) as [[v r1]|] eqn:E1; [|discriminate].
    destruct (dec_rep d k r1) as [[vs' r2]|] eqn:E2; inv H.
    apply Hd in E1 as [E1 ?]. apply IH in E2 as (E2 & ? & ?).
    cbn [forallb length elems map fold_right] in *. rewrite E1, E2. lia.
Qed.

Lemma dec_all_sound : forall ts, Forall (fun t => sound (wfb t) (Nat.b2n (nz t)) (decode t)) ts ->
  sound (wfb (Tup ts)) (Nat.b2n (nz (Tup ts))) (decode (Tup ts)).
Proof.
  intros ts Hts inp v r H. cbn [decode] in H.
  destruct (dec_all (map decode ts) inp) as [[vs r0]|] eqn:E; inv H. cbn [wfb nz elems].
  revert inp vs E. induction Hts as [|t ts Ht _ IH]; intros inp vs H; cbn [map dec_all] in H.
  - inv H. cbn. lia.
  - destruct (decode t inp) as [[v r1]|] eqn:E1; [|discriminate].
    destruct (dec_all (map decode ts) r1) as [[vs' r2]|] eqn:E2; inv H.
    apply Ht in E1 as [E1 ?]. apply IH in E2 as [E2 ?].
    cbn [map all2 fold_right existsb]. rewrite E1, E2. destruct (nz t), (existsb nz ts); cbn in *; lia.
Qed.

Theorem decode_sound : forall t, ty_ok t = true -> sound (wfb t) (Nat.b2n (nz t)) (decode t).
Proof.
  induction t as [|b|b| | | | |n| | |t IHt|t IHt|ts IHts|ts IHts|n t IHt] using ty_ind2;
    intros Hok inp v r Hd; cbn [decode] in Hd; cbn [ty_ok nz Nat.b2n] in *.
  - (* U8 *) destruct inp; inv Hd. cbn. lia.
  - (* VarU *)
    destruct (dec_u b inp) as [[n r0]|] eqn:E; inv Hd. apply dec_u_spec in E; [|exact Hok].
    cbn [wfb elems]. lia.
  - (* VarI *)
    destruct (dec_u b inp) as [[n r0]|] eqn:E; inv Hd. apply dec_u_spec in E as [E ?]; [|exact Hok].
    apply unzz_range in E; [|exact Hok]. cbn [wfb elems]. lia.
  - (* Bool *) destruct inp as [|[|[p|p|]] inp']; inv Hd; cbn; lia.
  - (* F64 *) destruct (take_n 8 inp) as [[bs r0]|] eqn:E; inv Hd. apply take_n_len in E. cbn [wfb elems]. lia.
  - (* Str *)
    destruct (dec_lenbytes inp) as [[bs r0]|] eqn:E; [|discriminate].
    destruct (utf8_valid bs) eqn:Eu; inv Hd. apply dec_lenbytes_spec in E. cbn [wfb elems]. rewrite Eu. lia.
  - (* Bytes *)
    destruct (dec_lenbytes inp) as [[bs r0]|] eqn:E; inv Hd. apply dec_lenbytes_spec in E. cbn [wfb elems]. lia.
  - (* BytesN *)
    destruct (dec_lenbytes inp) as [[bs r0]|] eqn:E; [|discriminate].
    destruct (_ =? n) eqn:En; inv Hd. apply dec_lenbytes_spec in E. cbn [wfb elems]. lia.
  - (* Dur *) apply dec_dur_spec in Hd as (s & n & -> & ?). cbn [wfb elems]. lia.
  - (* SysTime *) apply dec_dur_spec in Hd as (s & n & -> & ?). cbn [wfb elems]. lia.
  - (* Seq *)
    apply andb_true_iff in Hok as [Hnz Hok]. rewrite Hnz in IHt.
    destruct (dec_u 64 inp) as [[len r0]|] eqn:E; [|discriminate].
    destruct (_ <? len); [discriminate|].
    destruct (dec_rep (decode t) (N.to_nat len) r0) as [[vs r1]|] eqn:E2; inv Hd.
    apply dec_u_spec in E; [|reflexivity]. apply (dec_rep_sound _ _ _ (IHt Hok)) in E2 as (E2 & ? & ?).
    cbn [wfb elems] in *. rewrite E2. unfold U64MAX. lia.
  - (* Opt *)
    destruct inp as [|[|[p|p|]] inp']; try discriminate; [inv Hd; cbn; lia|].
    destruct (decode t inp') as [[v' r']|] eqn:E; inv Hd. apply (IHt Hok) in E as [E ?]. cbn [wfb elems length]. rewrite E. lia.
  - (* Tup *) exact (dec_all_sound ts (Forall_forallb _ _ _ IHts Hok) inp v r Hd).
  - (* Enum *)
    apply andb_true_iff in Hok as [_ Hok].
    destruct (dec_u 32 inp) as [[idx r0]|] eqn:E; [|discriminate].
    destruct (idx <? _) eqn:Ei; [|discriminate].
    rewrite nth_error_map in Hd. destruct (nth_error ts (N.to_nat idx)) as [t|] eqn:Et; [|discriminate].
    cbn [option_map] in Hd. destruct (decode t r0) as [[v' r']|] eqn:E3; inv Hd.
    apply (proj1 (Forall_forall _ _) (Forall_forallb _ _ _ IHts Hok) t (nth_error_In _ _ Et)) in E3 as [E3 ?].
    apply dec_u_spec in E; [|reflexivity]. cbn [wfb elems]. rewrite Ei, nth_error_map, Et. cbn [option_map]. rewrite E3. lia.
  - (* Arr *)
    destruct (dec_rep (decode t) n inp) as [[vs r0]|] eqn:E; inv Hd.
    apply (dec_rep_sound _ _ _ (IHt Hok)) in E as (E & E1 & ?). cbn [wfb elems] in *.
    rewrite E, E1, Nat.eqb_refl. destruct n, (nz t); cbn in *; lia.
Qed.

Lemma dec_rep_rt : forall (d : decoder) (e : value -> list N) (w : value -> bool),
  (forall v r, w v = true -> d (e v ++ r) = Some (v, r)) ->
  forall vs r, forallb w vs = true -> dec_rep d (length vs) (concat (map e vs) ++ r) = Some (vs, r).
Proof.
  intros d e w Hd vs r. induction vs as [|v vs IH]; cbn [forallb length map concat dec_rep]; intros H; [reflexivity|].
  apply andb_true_iff in H as [Hv Hvs]. rewrite <- app_assoc, (Hd _ _ Hv), (IH Hvs). reflexivity.
Qed.

Lemma dec_all_rt : forall ts vs r,
  Forall (fun t => forall v r', wfb t v = true -> decode t (encode t v ++ r') = Some (v, r')) ts ->
  all2 (map wfb ts) vs = true ->
  dec_all (map decode ts) (enc_all (map encode ts) vs ++ r) = Some (vs, r).
Proof.
  intros ts vs r H. revert vs. induction H as [|t ts Ht _ IH]; intros [|v vs] Hw; try discriminate; [reflexivity|].
  cbn [map all2 enc_all dec_all] in *. apply andb_true_iff in Hw as [Hw1 Hw2].
  rewrite <- app_assoc, (Ht _ _ Hw1), (IH _ Hw2). reflexivity.
Qed.

Theorem decode_encode : forall t, ty_ok t = true ->
  forall v rest, wfb t v = true -> decode t (encode t v ++ rest) = Some (v, rest).
Proof.
  induction t as [|b|b| | | | |n| | |t IHt|t IHt|ts IHts|ts IHts|n t IHt] using ty_ind2;
    intros Hok v rest Hw; destruct v; try discriminate Hw; cbn [encode decode]; cbn [wfb ty_ok] in Hw, Hok.
  - (* U8 *) reflexivity.
  - (* VarU *) rewrite dec_enc_u; [reflexivity|exact Hok|lia].
  - (* VarI *) rewrite dec_enc_u, unzz_zz; [reflexivity|exact Hok|]. apply zz_bound; [exact Hok|lia].
  - (* Bool *) destruct b; reflexivity.
  - (* F64 *) replace 8 with (N.of_nat (length bs)) by lia. rewrite take_n_app. reflexivity.
  - (* Str *)
    apply andb_true_iff in Hw as [H1 H2]. rewrite <- app_assoc, dec_lenbytes_rt, H1 by lia. reflexivity.
  - (* Bytes *) rewrite <- app_assoc, dec_lenbytes_rt by lia. reflexivity.
  - (* BytesN *)
    apply andb_true_iff in Hw as [H1 H2]. rewrite <- app_assoc, dec_lenbytes_rt, H1 by lia. reflexivity.
  - (* Dur *) rewrite <- app_assoc. apply dec_dur_rt; [discriminate|lia|lia].
  - (* SysTime *) rewrite <- app_assoc. apply dec_dur_rt; [discriminate|lia|lia].
  - (* Seq *)
    apply andb_true_iff in Hok as [Hnz Hok]. apply andb_true_iff in Hw as [Hl Hw].
    rewrite <- app_assoc, dec_enc_u by (reflexivity || (unfold U64MAX in Hl; lia)).
    pose proof (dec_rep_rt _ _ _ (IHt Hok) vs rest Hw) as E.
    (* every element has cost a byte ([decode_sound] on this very decoding), so the claimed
       length passes the check against the input left *)
    pose proof (dec_rep_sound _ _ _ (decode_sound t Hok) _ _ _ _ E) as (_ & _ & Hlen).
    rewrite Hnz in Hlen. replace (_ <? _) with false by (cbn [Nat.b2n] in Hlen; lia).
    rewrite Nat2N.id, E. reflexivity.
  - (* Opt *) reflexivity.
  - cbn [app]. rewrite IHt by assumption. reflexivity.
  - (* Tup *) rewrite dec_all_rt; [reflexivity| |exact Hw]. exact (Forall_forallb _ _ _ IHts Hok).
  - (* Enum *)
    apply andb_true_iff in Hok as [Hn Hok]. apply andb_true_iff in Hw as [Hi Hw].
    rewrite nth_error_map in *. destruct (nth_error ts (N.to_nat idx)) as [t|] eqn:Et; [|discriminate].
    cbn [option_map] in *. rewrite Hi, <- app_assoc, dec_enc_u, Hi, nth_error_map, Et by (reflexivity || lia).
    cbn [option_map].
    rewrite (proj1 (Forall_forall _ _) (Forall_forallb _ _ _ IHts Hok) t (nth_error_In _ _ Et) _ _ Hw). reflexivity.
  - (* Arr *)
    apply andb_true_iff in Hw as [Hl Hw]. apply Nat.eqb_eq in Hl. subst n.
    rewrite (dec_rep_rt _ _ _ (IHt Hok)) by exact Hw. reflexivity.
Qed.

Lemma cont_digit : forall x, cont (128 + x mod 64) = true.
Proof. intros x. unfold cont, inr. lia. Qed.

(* In each multi-byte case: the ranges of the leading base-64 digits of [c] ([D]; the others are
   continuation bytes by [cont_digit]), then the validator's tests with the digits as variables.
   The tail is hidden in [r] while [cbn] unfolds the validator, which would otherwise unfold it
   on the tail in every branch that is not taken. *)
Lemma utf8_enc_valid : forall c l, scalar c = true -> utf8_valid (utf8_enc c ++ l) = utf8_valid l.
Proof.
  intros c l Hs. unfold scalar in Hs. unfold utf8_enc.
  repeat case_if; cbn [app].
  - cbn [utf8_valid]. rewrite E. reflexivity.
  - assert (D : 2 <= c / 64 < 32) by (clear Hs; lia).
    remember (_ :: l) as r. cbn [utf8_valid]. subst r. rewrite cont_digit.
    generalize (c / 64) D. clear. intros q D. unfold inr.
    case_if; [lia|]. case_if; [reflexivity|lia].
  - assert (R : 2048 <= c < 55296 \/ 57344 <= c < 65536) by lia.
    assert (D : c / 4096 < 16 /\ (c / 64) mod 64 < 64 /\
                (c / 4096 = 0 -> 32 <= (c / 64) mod 64) /\ (c / 4096 = 13 -> (c / 64) mod 64 < 32))
      by (clear - R; lia).
    remember (_ :: _ :: l) as r. cbn [utf8_valid]. subst r. rewrite !cont_digit.
    generalize (c / 4096) ((c / 64) mod 64) D. clear. intros q m D. unfold inr.
    do 2 (case_if; [lia|]). case_if; [|lia]. repeat case_if; [apply andb_drop; lia..|reflexivity].
  - assert (R : 65536 <= c < 1114112) by lia.
    assert (D : c / 262144 <= 4 /\ (c / 4096) mod 64 < 64 /\
                (c / 262144 = 0 -> 16 <= (c / 4096) mod 64) /\ (c / 262144 = 4 -> (c / 4096) mod 64 < 16))
      by (clear - R; lia).
    remember (_ :: _ :: _ :: l) as r. cbn [utf8_valid]. subst r. rewrite !cont_digit.
    generalize (c / 262144) ((c / 4096) mod 64) D. clear. intros q m D. unfold inr.
    do 3 (case_if; [lia|]). case_if; [|lia]. repeat case_if; [apply andb_drop; lia..|reflexivity].
Qed.

Lemma utf8_string_valid : forall cs, forallb scalar cs = true -> utf8_valid (flat_map utf8_enc cs) = true.
Proof.
  induction cs as [|c cs IH]; intros H; [reflexivity|].
  cbn [forallb] in H. apply andb_true_iff in H as [H1 H2].
  cbn [flat_map]. rewrite utf8_enc_valid by exact H1. apply IH. exact H2.
Qed.
