(* Lemmas about Model/Selector.v.
   Without arithmetic: selection = first [count] of the ranked eligible candidates;
   well-formedness; exclusion floor.
   The order laws [laws S] of a number structure and, from them alone, the ranking theorems
   (sortedness of [rank], no farther-before-closer at equal trust, no
   less-trusted-before-more-trusted at equal distance); [laws qnum] for exact rational arithmetic.
   The engine selections on the routing table of Model/Routing.v; evicted / failed peers are
   absent until offered again. *)
From Coq Require Import Sorting.Sorted Permutation QArith Lqa.
From SV Require Import Lib.Base Lib.Xor Lib.ListAux Lib.Isort Gen.SelectorConsts
                       Model.Routing Proofs.Routing Model.Selector.
Local Open Scope N_scope.

Lemma take_firstn : forall {A} (l : list A) n, take n l = firstn (N.to_nat n) l.
Proof. intro A. apply take_like_firstn. intros n []; reflexivity. Qed.

Section Selection.
  Context {F : Type}.
  Variable S : num F.
  Variable c : @scfg F.
  Variable key : N.
  Variable trust_of : N -> F.

  Definition elig_node (x : node) : bool := eligible S c (entry S c key trust_of x).

  Lemma entry_node : forall x, e_node (entry S c key trust_of x) = x.
  Proof. reflexivity. Qed.

  Lemma rank_in : forall cands e, In e (rank S c key trust_of cands) ->
    exists x, In x cands /\ e = entry S c key trust_of x /\ eligible S c e = true.
  Proof.
    intros cands e H. unfold rank in H. apply isort_in in H. apply filter_In in H. destruct H as [H E].
    apply in_map_iff in H. destruct H as [x [<- Hx]]. exists x. auto.
  Qed.

  Lemma rank_perm : forall cands,
    Permutation (map e_node (rank S c key trust_of cands)) (filter elig_node cands).
  Proof.
    intro cands. unfold rank. rewrite <- (Permutation_map _ (isort_perm _ _)).
    induction cands as [|x l IH]; [reflexivity|]. cbn [map filter]. unfold elig_node at 1.
    destruct (eligible S c (entry S c key trust_of x)); [apply perm_skip|]; exact IH.
  Qed.

  (* two candidates each placed before_eq the other tie on the score and then on the full distance *)
  Lemma before_eq_antisym : forall x y,
    before_eq S (entry S c key trust_of x) (entry S c key trust_of y) = true ->
    before_eq S (entry S c key trust_of y) (entry S c key trust_of x) = true -> n_id x = n_id y.
  Proof.
    intros x y H1 H2. apply (dist_inj key).
    unfold before_eq, lex, sle, dle in H1, H2. cbn [entry e_score e_dist] in H1, H2.
    apply andb_true_iff in H1. destruct H1 as [S1 H1]. apply andb_true_iff in H2. destruct H2 as [S2 H2].
    rewrite S2 in H1. rewrite S1 in H2. cbn [negb orb] in H1, H2.
    apply andb_true_iff in H1. apply andb_true_iff in H2. lia.
  Qed.

  Lemma select_firstn : forall cands count,
    select S c key trust_of cands count = map e_node (firstn (N.to_nat count) (rank S c key trust_of cands)).
  Proof. intros. unfold select. rewrite take_firstn. reflexivity. Qed.

  (* the answer together with what was left out is the candidate list, as a multiset *)
  Lemma select_multiset : forall cands count,
    exists rest, Permutation cands (select S c key trust_of cands count ++ rest).
  Proof.
    intros cands count. rewrite select_firstn.
    exists (map e_node (skipn (N.to_nat count) (rank S c key trust_of cands)) ++ filter (fun x => negb (elig_node x)) cands).
    rewrite app_assoc, <- map_app, firstn_skipn, rank_perm. apply filter_partition_perm.
  Qed.

  Lemma select_incl : forall cands count x, In x (select S c key trust_of cands count) -> In x cands.
  Proof.
    intros cands count x H. destruct (select_multiset cands count) as [rest P].
    eapply Permutation_in; [apply Permutation_sym, P|]. apply in_or_app. left. exact H.
  Qed.

  Lemma select_nodup : forall cands count, NoDup (ids cands) -> NoDup (ids (select S c key trust_of cands count)).
  Proof. intros cands count. destruct (select_multiset cands count) as [rest P]. exact (nodup_ids_part _ _ _ P). Qed.

  Lemma select_length : forall cands count,
    N.of_nat (length (select S c key trust_of cands count)) = N.min count (N.of_nat (length (filter elig_node cands))).
  Proof.
    intros. rewrite select_firstn, map_length, firstn_length.
    rewrite <- (Permutation_length (rank_perm cands)), map_length. lia.
  Qed.

  (* every selected peer passed the exclusion test and has a numeric score *)
  Lemma select_eligible : forall cands count x, In x (select S c key trust_of cands count) -> elig_node x = true.
  Proof.
    intros cands count x H. rewrite select_firstn in H. apply in_map_iff in H. destruct H as [e [<- He]].
    apply In_firstn in He. apply rank_in in He. destruct He as [y [_ [-> E]]]. exact E.
  Qed.

  Lemma select_floor : forall cands count x, c_excl c = true -> In x (select S c key trust_of cands count) ->
    ltb S (nan0 S (trust_of (n_id x))) (c_min c) = false.
  Proof.
    intros cands count x Ex H. apply select_eligible in H. unfold elig_node, eligible in H.
    apply andb_true_iff in H. destruct H as [H _]. rewrite Ex in H. cbn [andb entry e_raw] in H.
    apply negb_true_iff in H. exact H.
  Qed.
End Selection.

Lemma lex_preorder : forall {F} (P : @ent F -> Prop) r s,
  preorder_on P r -> preorder_on P s -> preorder_on P (lex r s).
Proof.
  intros F P r s [r_total r_trans] [s_total s_trans]. unfold lex. split.
  - intros a b Pa Pb. destruct (r a b) eqn:E1, (r b a) eqn:E2; cbn [andb negb orb]; auto.
    destruct (r_total a b Pa Pb); congruence.
  - intros a b d Pa Pb Pd H1 H2.
    apply andb_true_iff in H1. destruct H1 as [R1 H1]. apply andb_true_iff in H2. destruct H2 as [R2 H2].
    rewrite (r_trans a b d Pa Pb Pd R1 R2). cbn [andb].
    destruct (r d a) eqn:E; cbn [negb orb]; [|reflexivity].
    (* r d a closes the cycle: a, b, d are r-equivalent and s decides both steps *)
    rewrite (r_trans d a b Pd Pa Pb E R1) in H2. rewrite (r_trans b d a Pb Pd Pa R2 E) in H1.
    exact (s_trans a b d Pa Pb Pd H1 H2).
Qed.

Section Laws.
  Context {F : Type}.
  Variable S : num F.
  Notation "a <== b" := (leb S a b = true) (at level 70).
  Notation two := (add S (one S) (one S)).

  (* The order laws.  Proved for exact arithmetic ([q_laws]); for IEEE-754 binary64 they are
     assumed (the hypothesis [laws fnum] of C16_rank_binary64), on the grounds that each operation
     is the correctly rounded exact result, rounding is monotone and fixes 0, 1, 2, and a
     comparison with a NaN is false, so every premise below excludes NaN. *)
  Record laws : Prop := mkLaws {
    L_trans : forall a b c, a <== b -> b <== c -> a <== c;
    L_total : forall a b, a <== a -> b <== b -> a <== b \/ b <== a;
    L_ok : forall a b, a <== b -> a <== a /\ b <== b;
    L_ltb : forall a b, ltb S a b = true <-> (a <== b /\ leb S b a = false);
    L_01 : zero S <== one S;
    L_12 : one S <== two;
    L_ofN : forall a b, a <= b -> b < 2 ^ 128 -> zero S <== ofN S a /\ ofN S a <== ofN S b;
    L_div_scale : forall a b, zero S <== a -> a <== b ->
      zero S <== div S a (scale S) /\ div S a (scale S) <== div S b (scale S);
    L_add_one : forall a b, zero S <== a -> a <== b ->
      one S <== add S (one S) a /\ add S (one S) a <== add S (one S) b;
    L_recip : forall a b, one S <== a -> a <== b ->
      zero S <== div S (one S) b /\ div S (one S) b <== div S (one S) a /\ div S (one S) a <== one S;
    L_sub_one : forall a, zero S <== a -> a <== one S ->
      zero S <== sub S (one S) a /\ sub S (one S) a <== one S;
    L_mul : forall a b d, zero S <== a -> a <== b -> b <== two -> zero S <== d -> d <== two ->
      zero S <== mul S a d /\ mul S a d <== mul S b d /\ zero S <== mul S d a /\ mul S d a <== mul S d b;
    L_mul_unit : forall a d, zero S <== a -> a <== one S -> zero S <== d -> d <== one S -> mul S a d <== one S;
    L_add_unit : forall a b d, zero S <== d -> d <== one S -> zero S <== a -> a <== b -> b <== one S ->
      zero S <== add S d a /\ add S d a <== add S d b /\ add S d b <== two
  }.

  Hypothesis L : laws.

  Definition in_unit (x : F) : Prop := zero S <== x /\ x <== one S.

  Lemma unit_range : forall x, in_unit (unit S x).
  Proof.
    intro x. unfold unit, in_unit. destruct (L_ok L _ _ (L_01 L)) as [ok0 ok1].
    destruct (ltb S (zero S) x) eqn:E; [|split; [exact ok0|apply (L_01 L)]].
    apply (L_ltb L) in E. destruct E as [E1 E2]. destruct (leb S (one S) x) eqn:E3.
    - split; [apply (L_01 L)|exact ok1].
    - split; [exact E1|]. destruct (L_total L x (one S)) as [H|H]; [apply (L_ok L _ _ E1)|exact ok1|exact H|congruence].
  Qed.

  (* a raw trust below a positive floor - or NaN - is read as below the floor *)
  Lemma unit_below : forall t m, ltb S (zero S) m = true ->
    (ltb S t m = true \/ leb S t t = false) -> ltb S (unit S t) m = true.
  Proof.
    intros t m Hm Ht. unfold unit. destruct (ltb S (zero S) t) eqn:E; [|exact Hm].
    apply (L_ltb L) in E. destruct E as [E1 _].
    destruct Ht as [Ht|Ht]; [|rewrite (proj2 (L_ok L _ _ E1)) in Ht; discriminate].
    destruct (leb S (one S) t) eqn:E3; [|exact Ht].
    (* 1 <= t < m *)
    apply (L_ltb L) in Ht. destruct Ht as [H2 H3]. apply (L_ltb L). split; [exact (L_trans L _ _ _ E3 H2)|].
    destruct (leb S m (one S)) eqn:E4; [|reflexivity]. rewrite (L_trans L _ _ _ E4 E3) in H3. discriminate.
  Qed.

  Lemma dscore_mono : forall d1 d2, d1 <= d2 -> d2 < 2 ^ 128 ->
    zero S <== dscore S d2 /\ dscore S d2 <== dscore S d1 /\ dscore S d1 <== one S.
  Proof.
    intros d1 d2 H1 H2. unfold dscore.
    destruct (L_ofN L d1 d2 H1 H2) as [A1 A2].
    destruct (L_div_scale L _ _ A1 A2) as [B1 B2].
    destruct (L_add_one L _ _ B1 B2) as [C1 C2].
    exact (L_recip L _ _ C1 C2).
  Qed.

  Lemma tfactor_mono : forall w t1 t2, in_unit w -> zero S <== t1 -> t1 <== t2 -> t2 <== one S ->
    zero S <== tfactor S w t1 /\ tfactor S w t1 <== tfactor S w t2 /\ tfactor S w t2 <== two.
  Proof.
    intros w t1 t2 [W1 W2] T1 T12 T2. unfold tfactor.
    destruct (L_sub_one L w W1 W2) as [S1 S2].
    destruct (L_mul L t1 t2 (sub S (one S) w) T1 T12 (L_trans L _ _ _ T2 (L_12 L)) S1 (L_trans L _ _ _ S2 (L_12 L)))
      as [_ [_ [M1 M2]]].
    exact (L_add_unit L _ _ w W1 W2 M1 M2 (L_mul_unit L _ _ S1 S2 (L_trans L _ _ _ T1 T12) T2)).
  Qed.

  (* closer (as xor_distance sees it) and at least as trusted => at least the score *)
  Lemma score_mono : forall w d1 d2 t1 t2, in_unit w -> d1 <= d2 -> d2 < 2 ^ 128 ->
    zero S <== t2 -> t2 <== t1 -> t1 <== one S ->
    zero S <== mul S (dscore S d2) (tfactor S w t2) /\
    mul S (dscore S d2) (tfactor S w t2) <== mul S (dscore S d1) (tfactor S w t1).
  Proof.
    intros w d1 d2 t1 t2 W D1 D2 T2 T21 T1.
    destruct (dscore_mono d1 d2 D1 D2) as [A1 [A2 A3]].
    destruct (tfactor_mono w t2 t1 W T2 T21 T1) as [B1 [B2 B3]].
    pose proof (L_trans L _ _ _ A3 (L_12 L)) as A3'.
    destruct (L_mul L _ _ (tfactor S w t2) A1 A2 A3' B1 (L_trans L _ _ _ B2 B3)) as [M1 [M2 _]].
    destruct (L_mul L _ _ (dscore S d1) B1 B2 B3 (L_trans L _ _ _ A1 A2) A3') as [_ [_ [_ M4]]].
    split; [exact M1|exact (L_trans L _ _ _ M2 M4)].
  Qed.

  Definition numbered (e : @ent F) : Prop := e_score e <== e_score e /\ e_trust e <== e_trust e.

  Lemma before_eq_preorder : preorder_on numbered (before_eq S).
  Proof.
    repeat apply lex_preorder; (split; [intros a b [A1 A2] [B1 B2]|intros a b d _ _ _]); unfold sle, dle, tle.
    - destruct (L_total L _ _ B1 A1); auto.
    - intros H1 H2. exact (L_trans L _ _ _ H2 H1).
    - destruct (N.leb_spec (e_dist a) (e_dist b)); [left; reflexivity|right; apply N.leb_le; lia].
    - rewrite !N.leb_le. lia.
    - destruct (L_total L _ _ B2 A2); auto.
    - intros H1 H2. exact (L_trans L _ _ _ H2 H1).
  Qed.

  Variable c : @scfg F.
  Variable key : N.
  Variable trust_of : N -> F.
  Hypothesis key_is_256 : key_ok key.

  (* the scored distance is the top 256 - LOW_BITS = 128 bits of the distance, so it lies in the
     range of u128, which is what [L_ofN] asks of an argument of [ofN] (Rust: u128 as f64) *)
  Lemma d16_bound : forall id, key_ok id -> d16 key id < 2 ^ 128.
  Proof.
    intros id K. unfold d16. change LOW_BITS with 128.
    apply N.div_lt_upper_bound; [apply N.pow_nonzero; lia|].
    replace (2 ^ 128 * 2 ^ 128) with (2 ^ 256) by (rewrite <- N.pow_add_r; reflexivity).
    exact (lxor_key_ok id key K key_is_256).
  Qed.

  Lemma d16_mono : forall a b, dist key a <= dist key b -> d16 key a <= d16 key b.
  Proof. intros a b H. unfold d16. apply N.div_le_mono; [apply N.pow_nonzero; lia|exact H]. Qed.

  Lemma entry_numbered : forall x, key_ok (n_id x) -> numbered (entry S c key trust_of x).
  Proof.
    intros x K. unfold numbered, entry. cbn [e_score e_trust]. unfold score.
    destruct (unit_range (trust_of (n_id x))) as [T1 T2]. destruct (L_ok L _ _ T1) as [_ T].
    split; [|exact T].
    destruct (score_mono _ _ _ _ _ (unit_range (c_weight c)) (N.le_refl _) (d16_bound _ K) T1 T T2) as [_ H].
    apply (L_ok L _ _ H).
  Qed.

  Lemma rank_sorted : forall cands, Forall (fun x => key_ok (n_id x)) cands ->
    StronglySorted (fun a b => before_eq S a b = true) (rank S c key trust_of cands).
  Proof.
    intros cands K. unfold rank. apply (isort_sorted (before_eq S) numbered before_eq_preorder).
    apply Forall_forall. intros e He. apply filter_In in He. destruct He as [He _].
    apply in_map_iff in He. destruct He as [x [<- Hx]]. apply entry_numbered.
    rewrite Forall_forall in K. apply K, Hx.
  Qed.

  (* x ranked at or before y although y is at least as trusted and at least as close:
     then y scores at least as high, so the tie-breaks decided, and they tie as well *)
  Lemma before_eq_tie : forall x y, key_ok (n_id x) ->
    let ex := entry S c key trust_of x in let ey := entry S c key trust_of y in
    before_eq S ex ey = true -> e_trust ex <== e_trust ey -> e_dist ey <= e_dist ex ->
    e_dist ex = e_dist ey /\ e_trust ey <== e_trust ex.
  Proof.
    intros x y Kx ex ey B T D. subst ex ey. cbn [entry e_trust e_dist] in *.
    destruct (unit_range (trust_of (n_id x))) as [X1 _]. destruct (unit_range (trust_of (n_id y))) as [_ Y2].
    destruct (score_mono _ _ _ _ _ (unit_range (c_weight c)) (d16_mono _ _ D) (d16_bound _ Kx) X1 T Y2) as [_ M].
    unfold before_eq, lex, sle, dle, tle in B. cbn [entry e_score e_dist e_trust] in B. unfold score in B.
    rewrite M in B. cbn [negb orb] in B.
    apply andb_true_iff in B. destruct B as [_ B]. apply andb_true_iff in B. destruct B as [B1 B2].
    apply N.leb_le in B1. assert (E : dist key (n_id x) = dist key (n_id y)) by lia.
    split; [exact E|]. rewrite E, N.leb_refl in B2. exact B2.
  Qed.

  (* the two ranking laws for a pair of scored candidates, the first of which is placed
     before_eq the second: the second is neither closer with equal trust, nor equally far
     and more trusted *)
  Lemma before_eq_not_misranked : forall x y, key_ok (n_id x) ->
    before_eq S (entry S c key trust_of x) (entry S c key trust_of y) = true ->
    misranked S (entry S c key trust_of x) (entry S c key trust_of y) = false.
  Proof.
    intros x y Kx B. pose proof (before_eq_tie x y Kx B) as Tie. cbn zeta in Tie.
    unfold misranked. apply orb_false_iff. split; apply andb_false_iff.
    - destruct (feq S _ _) eqn:E; [right|left; reflexivity]. apply andb_true_iff in E.
      apply N.ltb_ge. destruct (N.le_gt_cases (e_dist (entry S c key trust_of x)) (e_dist (entry S c key trust_of y)))
        as [Le|Gt]; [exact Le|].
      destruct Tie as [Ed _]; [apply E|lia|lia].
    - destruct (N.eqb_spec (e_dist (entry S c key trust_of x)) (e_dist (entry S c key trust_of y))) as [E|_];
        [right|left; reflexivity].
      destruct (ltb S _ _) eqn:Lt; [|reflexivity]. apply (L_ltb L) in Lt.
      destruct Tie as [_ T]; [apply Lt|lia|]. destruct Lt. congruence.
  Qed.

  (* whoever stands before somebody in the ranking is not misranked against it *)
  Lemma rank_ordered : forall cands x y, Forall (fun x => key_ok (n_id x)) cands ->
    In x (rank S c key trust_of cands) -> In y (rank S c key trust_of cands) ->
    before_eq S x y = true -> misranked S x y = false.
  Proof.
    intros cands x y K Ix Iy. apply rank_in in Ix. apply rank_in in Iy.
    destruct Ix as [nx [Hx [-> _]]]. destruct Iy as [ny [_ [-> _]]].
    apply before_eq_not_misranked. rewrite Forall_forall in K. apply K, Hx.
  Qed.

  Lemma rank_split3 : forall cands l1 x l2 y l3, Forall (fun x => key_ok (n_id x)) cands ->
    rank S c key trust_of cands = l1 ++ x :: l2 ++ y :: l3 ->
    In x (rank S c key trust_of cands) /\ In y (rank S c key trust_of cands) /\ before_eq S x y = true.
  Proof.
    intros cands l1 x l2 y l3 K E. pose proof (rank_sorted cands K) as Srt. rewrite E in *.
    split; [apply in_elt|]. split; [|exact (ss_split3 _ _ _ _ _ _ Srt)].
    apply in_or_app. right. right. apply in_elt.
  Qed.

  Lemma not_misranked : forall x y : @ent F, misranked S x y = false ->
    (feq S (e_trust x) (e_trust y) = true -> e_dist x <= e_dist y) /\
    (e_dist x = e_dist y -> ltb S (e_trust x) (e_trust y) = false).
  Proof.
    intros x y H. unfold misranked in H. apply orb_false_iff in H. destruct H as [H1 H2]. split.
    - intro E. rewrite E in H1. cbn [andb] in H1. apply N.ltb_ge in H1. exact H1.
    - intro E. apply N.eqb_eq in E. rewrite E in H2. exact H2.
  Qed.

  Lemma rank_laws : forall cands l1 x l2 y l3, Forall (fun x => key_ok (n_id x)) cands ->
    rank S c key trust_of cands = l1 ++ x :: l2 ++ y :: l3 ->
    (feq S (e_trust x) (e_trust y) = true -> e_dist x <= e_dist y) /\
    (e_dist x = e_dist y -> ltb S (e_trust x) (e_trust y) = false).
  Proof.
    intros cands l1 x l2 y l3 K E. destruct (rank_split3 cands l1 x l2 y l3 K E) as [Ix [Iy B]].
    exact (not_misranked x y (rank_ordered cands x y K Ix Iy B)).
  Qed.

  (* under exclusion a selected peer's raw trust is not below the floor; and if the floor is
     positive it is a number (a NaN answer is read as 0, which is below a positive floor) *)
  Lemma floor_raw : forall cands count x, c_excl c = true ->
    In x (select S c key trust_of cands count) ->
    ltb S (trust_of (n_id x)) (c_min c) = false /\
    (ltb S (zero S) (c_min c) = true -> leb S (trust_of (n_id x)) (trust_of (n_id x)) = true).
  Proof.
    intros cands count x Ex H. pose proof (select_floor S c key trust_of cands count x Ex H) as Fl.
    unfold nan0 in Fl. destruct (leb S (trust_of (n_id x)) (trust_of (n_id x))) eqn:E.
    - split; [exact Fl|reflexivity].
    - split; [|intro Pm; congruence].
      destruct (ltb S (trust_of (n_id x)) (c_min c)) eqn:E2; [|reflexivity].
      apply (L_ltb L) in E2. destruct E2 as [E2 _]. rewrite (proj1 (L_ok L _ _ E2)) in E. discriminate.
  Qed.
End Laws.

Section QLaws.
  Local Open Scope Q_scope.

  Lemma q_laws : laws qnum.
  Proof.
    constructor; cbn [leb ltb zero one scale add sub mul div ofN qnum]; intros; rewrite ?Qle_bool_iff in *.
    - (* L_trans *) eapply Qle_trans; eauto.
    - (* L_total *) destruct (Qlt_le_dec b a) as [H1|H1]; [right; apply Qlt_le_weak; exact H1|left; exact H1].
    - (* L_ok *) split; apply Qle_refl.
    - (* L_ltb *) rewrite negb_true_iff. split.
      + intro H. split; [|exact H]. apply Qlt_le_weak, Qnot_le_lt. intro H1. apply Qle_bool_iff in H1. congruence.
      + tauto.
    - (* L_01 *) discriminate.
    - (* L_12 *) discriminate.
    - (* L_ofN *) split.
      + change 0 with (inject_Z 0). rewrite <- Zle_Qle. lia.
      + rewrite <- Zle_Qle. lia.
    - (* L_div_scale *) assert (I : 0 <= / SEL_SCALE) by (apply Qinv_le_0_compat; discriminate).
      unfold Qdiv. split.
      + apply Qmult_le_0_compat; assumption.
      + apply Qmult_le_compat_r; assumption.
    - (* L_add_one *) split; lra.
    - (* L_recip *) assert (Pa : 0 < a) by lra. assert (Pb : 0 < b) by lra. repeat split.
      + apply Qle_shift_div_l; [exact Pb|]. lra.
      + apply Qle_shift_div_l; [exact Pa|].
        setoid_replace (1 / b * a) with (a / b) by (unfold Qdiv; ring).
        apply Qle_shift_div_r; [exact Pb|]. lra.
      + apply Qle_shift_div_r; [exact Pa|]. lra.
    - (* L_sub_one *) split; lra.
    - (* L_mul *) repeat split; nra.
    - (* L_mul_unit *) nra.
    - (* L_add_unit *) repeat split; lra.
  Qed.
End QLaws.

(* in exact arithmetic, at equal SCORED distance (same top 16 bytes) and weight < 1, the score is
   strictly increasing in trust *)
Lemma score_strict_exact : forall w d t1 t2, (0 <= w)%Q -> (w < 1)%Q -> (t1 < t2)%Q ->
  (mul qnum (dscore qnum d) (tfactor qnum w t1) < mul qnum (dscore qnum d) (tfactor qnum w t2))%Q.
Proof.
  intros w d t1 t2 W0 W1 T. unfold tfactor, dscore. cbn [mul add sub div one ofN scale qnum].
  assert (A : (0 <= inject_Z (Z.of_N d) / SEL_SCALE)%Q).
  { unfold Qdiv. apply Qmult_le_0_compat; [change 0%Q with (inject_Z 0); rewrite <- Zle_Qle; lia|].
    apply Qinv_le_0_compat. discriminate. }
  apply Qmult_lt_l; [apply Qlt_shift_div_l; lra|].
  apply Qplus_lt_r. apply Qmult_lt_l; [lra|exact T].
Qed.

(* so a candidate placed before_eq another at equal scored distance is at least as trusted *)
Lemma before_eq_scored_tie_exact : forall (c : scfg) key trust_of x y,
  before_eq qnum (entry qnum c key trust_of x) (entry qnum c key trust_of y) = true ->
  d16 key (n_id x) = d16 key (n_id y) -> (unit qnum (c_weight c) < 1)%Q ->
  (unit qnum (trust_of (n_id y)) <= unit qnum (trust_of (n_id x)))%Q.
Proof.
  intros c key trust_of x y B D W.
  destruct (Qlt_le_dec (unit qnum (trust_of (n_id x))) (unit qnum (trust_of (n_id y)))) as [Lt|Ge]; [exfalso|exact Ge].
  unfold before_eq, lex, sle in B. cbn [entry e_score] in B. apply andb_true_iff in B. destruct B as [S1 _].
  cbn [leb qnum] in S1. apply Qle_bool_iff in S1. unfold score in S1. rewrite D in S1.
  destruct (unit_range qnum q_laws (c_weight c)) as [W0 _]. cbn [leb zero qnum] in W0. apply Qle_bool_iff in W0.
  pose proof (score_strict_exact _ (d16 key (n_id y)) _ _ W0 W Lt). lra.
Qed.

Section Engine.
  Context {F : Type}.
  Variable S : num F.

  Lemma widen_ge_1 : forall storage : bool, 1 <= (if storage then SEL_STORAGE_WIDEN else SEL_QUERY_WIDEN).
  Proof. intros []; discriminate. Qed.

  (* trust selection disabled: exactly the [count] closest entries of the table, nearest first *)
  Lemma engine_disabled : forall trust_of storage t key count, Inv t -> key_ok key ->
    engine_select S None trust_of storage t key count = closest_spec t key count.
  Proof.
    intros trust_of storage t key count I K. unfold engine_select, closest_spec.
    rewrite take_firstn, (closest_exact t key _ I K). unfold closest_spec. rewrite firstn_firstn. f_equal.
    pose proof (widen_ge_1 storage). nia.
  Qed.

  Lemma closest_key_ok : forall t key count, Inv t -> key_ok key -> Forall (fun x => key_ok (n_id x)) (closest t key count).
  Proof.
    intros t key count I K. apply Forall_forall. intros x H.
    apply (closest_meaning t key count I K) in H. apply (in_all_nodes_ok t x I H).
  Qed.

  (* every engine selection: members of the table, each id once, at most [count] *)
  Lemma engine_select_wf : forall sel trust_of storage t key count, Inv t -> key_ok key ->
    let res := engine_select S sel trust_of storage t key count in
    (forall x, In x res -> In x (all_nodes t)) /\ NoDup (ids res) /\ N.of_nat (length res) <= count /\
    ~ In (t_local t) (ids res).
  Proof.
    intros sel trust_of storage t key count I K res.
    set (cands := closest t key (count * (if storage then SEL_STORAGE_WIDEN else SEL_QUERY_WIDEN))).
    destruct (closest_meaning t key _ I K : let res := cands in _) as [_ [_ [NC [_ [SubC _]]]]].
    assert ((forall x, In x res -> In x cands) /\ NoDup (ids res) /\ N.of_nat (length res) <= count) as [Sub [ND Len]].
    { subst res. unfold engine_select. fold cands. destruct sel as [[qc sc]|].
      - split; [apply select_incl|]. split; [apply select_nodup, NC|rewrite select_length; lia].
      - rewrite take_firstn. split; [intro x; apply In_firstn|].
        split; [apply nodup_ids_firstn, NC|rewrite firstn_length; lia]. }
    split; [intros x H; apply SubC, Sub, H|]. split; [exact ND|]. split; [exact Len|].
    intro H. exact (inv_local_absent t I (incl_map n_id (incl_tran Sub SubC) _ H)).
  Qed.

  Lemma engine_select_storage_eq : forall qc sc trust_of t key count,
    engine_select S (Some (qc, sc)) trust_of true t key count =
    select S sc key trust_of (closest t key (count * SEL_STORAGE_WIDEN)) count.
  Proof. reflexivity. Qed.
  Lemma engine_select_query_eq : forall qc sc trust_of t key count,
    engine_select S (Some (qc, sc)) trust_of false t key count =
    select S qc key trust_of (closest t key (count * SEL_QUERY_WIDEN)) count.
  Proof. reflexivity. Qed.
End Engine.

Definition offers (id : N) (o : op) : bool :=
  match o with
  | Add x _ => n_id x =? id
  | Join l => existsb (fun x => n_id x =? id) l
  | _ => false
  end.

Lemma offers_offered : forall id o, offers id o = false -> Forall (fun x => n_id x <> id) (offered o).
Proof.
  intros id o H. destruct o; cbn [offers offered] in *; try constructor.
  - apply Forall_forall. intros x Ix E. rewrite <- not_true_iff_false in H. apply H, existsb_exists.
    exists x. split; [exact Ix|apply N.eqb_eq, E].
  - apply N.eqb_neq, H.
  - constructor.
Qed.

(* after handle_node_failure / evict_node of [id], whatever follows that does not offer [id]
   again (add_node / join_network naming it), the table does not list it *)
Lemma removed_stays_absent : forall local ops1 o ops2 id, key_ok local ->
  Forall op_ok (ops1 ++ o :: ops2) -> (o = Fail id \/ o = Evict id) ->
  forallb (fun o => negb (offers id o)) ops2 = true ->
  let t := fst (run (start local) (ops1 ++ o :: ops2)) in
  Inv t /\ ~ In id (ids (all_nodes t)).
Proof.
  intros local ops1 o ops2 id Kl Fa Ho Off t. split; [apply reach_inv; assumption|].
  subst t. rewrite run_app_fst, run_cons_fst. apply Forall_app in Fa. apply absent_preserved.
  { apply Forall_forall. intros o' Io. rewrite forallb_forall in Off. apply offers_offered, negb_true_iff, Off, Io. }
  replace (fst (step _ o)) with (table_remove (fst (run (start local) ops1)) id)
    by (destruct Ho as [-> | ->]; reflexivity).
  apply table_remove_absent, reach_inv; [exact Kl|apply Fa].
Qed.
