(* Proofs about Model/Lookup.v (C01).  One invariant of the state, [Inv]: queue, request log and
   result are well-formed ([InvS]), every peer learned of is accounted for ([Cov]), every peer
   queued or asked was [reached] from the initial candidates.  It is carried through [consider], [process_one], a batch and [loop];
   [lookup_inv] says what it gives of the final state, and the theorems of Props/C01.v are read
   off that.  The request bound needs no invariant ([loop_sent_len]). *)
From SV Require Import Lib.Base Lib.ListAux Gen.LookupConsts Model.Lookup.
From Coq Require Import Sorting.Sorted.
Local Open Scope N_scope.

Lemma mem_In x l : mem x l = true <-> In x l.
Proof.
  unfold mem. rewrite existsb_exists. split.
  - intros [y [H1 H2]]. apply N.eqb_eq in H2. subst; exact H1.
  - intro H. exists x. split; [exact H|apply N.eqb_refl].
Qed.

Lemma mem_false x l : mem x l = false <-> ~ In x l.
Proof. rewrite <- mem_In. destruct (mem x l); split; congruence. Qed.

Lemma remove_pid_In x y l : In y (remove_pid x l) <-> In y l /\ x <> y.
Proof.
  unfold remove_pid. rewrite filter_In, negb_true_iff, N.eqb_sym. apply and_iff_compat_l, N.eqb_neq.
Qed.

(* The queue walk of the lookup ([pop_batch]) and of the get ([Model.Store.gpop]): take from
   the FIFO queue, unmarking what is taken, until [alpha] peers that pass [keep] are in the batch. *)
Fixpoint pop (alpha : nat) (keep : pid -> bool) (c ql batch : list pid) : list pid * list pid * list pid :=
  match c with
  | [] => ([], ql, batch)
  | x :: c' =>
      if (alpha <=? length batch)%nat then (c, ql, batch)
      else pop alpha keep c' (remove_pid x ql) (if keep x then batch ++ [x] else batch)
  end.

(* what was taken is a prefix [pre]; the walk stops when the queue is drained or the batch is full *)
Lemma pop_spec alpha keep : forall c ql batch c' ql' batch',
  pop alpha keep c ql batch = (c', ql', batch') ->
  exists pre, c = pre ++ c' /\ (forall y, In y ql' <-> In y ql /\ ~ In y pre) /\
              batch' = batch ++ filter keep pre /\
              (c' = [] \/ (alpha <= length batch')%nat) /\
              (length batch' <= Nat.max (length batch) alpha)%nat.
Proof.
  induction c as [|x c IH]; intros ql batch c' ql' batch' H; cbn [pop] in H;
    [|destruct (Nat.leb_spec alpha (length batch)) as [E|E]].
  1, 2: injection H as <- <- <-; exists []; cbn [app filter In]; rewrite app_nil_r;
        repeat split; auto using Nat.le_max_l; tauto.
  apply IH in H. destruct H as [pre [-> [H2 [H3 [H4 H5]]]]]. exists (x :: pre).
  split; [reflexivity|]. split; [|split; [|split; [exact H4|]]].
  - intro y. rewrite H2, remove_pid_In. clear. cbn [In]. tauto.
  - cbn [filter]. destruct (keep x); [rewrite H3, <- app_assoc|]; auto.
  - destruct (keep x); [rewrite app_length in H5; cbn [length] in H5|]; lia.
Qed.

Section LookupProofs.
  Variable keyof : pid -> N.
  Variable reply : pid -> option (list pid).
  Variable self : pid.
  Variable selfs_marked selfs_all : list pid.
  Variable target : N.
  Variable count : nat.

  Local Notation dist := (Model.Lookup.dist keyof target).
  Local Notation insert := (Model.Lookup.insert keyof target).
  Local Notation dominated := (Model.Lookup.dominated keyof target count).
  Local Notation pop_batch := (Model.Lookup.pop_batch keyof target count).
  Local Notation consider := (Model.Lookup.consider keyof selfs_all target count).
  Local Notation process_one := (Model.Lookup.process_one keyof reply selfs_all target count).
  Local Notation loop := (Model.Lookup.loop keyof reply selfs_all target count).
  Local Notation init_state := (Model.Lookup.init_state self selfs_marked count).
  Local Notation lookup := (Model.Lookup.lookup keyof reply self selfs_marked selfs_all target count).
  Local Notation learned := (Model.Lookup.learned reply).

  Definition le_d (a b : pid) : Prop := dist a <= dist b.
  Definition SortedD : list pid -> Prop := StronglySorted le_d.

  Lemma insert_In x p l : In x (insert p l) <-> p = x \/ In x l.
  Proof.
    induction l as [|y l IH]; cbn [Model.Lookup.insert In]; [reflexivity|].
    case_if; cbn [In]; [reflexivity|]. rewrite IH. split; intros [H|[H|H]]; auto.
  Qed.

  Lemma insert_length p l : length (insert p l) = S (length l).
  Proof.
    induction l as [|y l IH]; cbn [Model.Lookup.insert length]; [reflexivity|].
    case_if; cbn [length]; rewrite ?IH; reflexivity.
  Qed.

  Lemma insert_sorted p l : SortedD l -> SortedD (insert p l).
  Proof.
    induction 1 as [|y l Hs IH Hf]; cbn [Model.Lookup.insert]; [repeat constructor|].
    rewrite Forall_forall in Hf. unfold le_d in Hf. case_if.
    - repeat constructor; [exact Hs|apply Forall_forall, Hf|unfold le_d; lia|].
      apply Forall_forall. intros a Ha. apply Hf in Ha. unfold le_d. lia.
    - constructor; [exact IH|]. apply Forall_forall. intros x Hx. apply insert_In in Hx.
      destruct Hx as [<-|Hx]; [unfold le_d; lia|apply Hf, Hx].
  Qed.

  Lemma insert_nodup p l : NoDup l -> ~ In p l -> NoDup (insert p l).
  Proof.
    induction 1 as [|y l Hy Hl IH]; cbn [Model.Lookup.insert In]; intro Hp; [repeat constructor; exact Hp|].
    case_if; repeat constructor; try tauto. rewrite insert_In. intuition congruence.
  Qed.

  Lemma insert_dom p x b : (forall w, In w b -> dist w <= dist x) ->
    forall w, In w (firstn (length b) (insert p b)) -> dist w <= dist x.
  Proof.
    induction b as [|y b IH]; cbn [Model.Lookup.insert length]; intros H w Hw; [destruct Hw|].
    case_if_in Hw; cbn [firstn In] in Hw; destruct Hw as [<-|Hw].
    - pose proof (H y (or_introl eq_refl)). lia.
    - apply In_firstn in Hw. apply H, Hw.
    - apply H. left; reflexivity.
    - apply IH; [|exact Hw]. intros w' Hw'. apply H. right; exact Hw'.
  Qed.

  (* best is full and x is no closer than any of its members *)
  Definition dom (b : list pid) (x : pid) : Prop :=
    length b = count /\ forall w, In w b -> dist w <= dist x.
  Definition covered (b : list pid) (x : pid) : Prop := In x b \/ dom b x.

  Lemma dom_step p b x : dom b x -> dom (firstn count (insert p b)) x.
  Proof.
    intros [Hl Hw]. split.
    - rewrite firstn_length, insert_length. lia.
    - rewrite <- Hl. apply insert_dom. exact Hw.
  Qed.

  Lemma covered_step p b x : SortedD b -> p = x \/ covered b x -> covered (firstn count (insert p b)) x.
  Proof.
    intros Hs Hx.
    assert (Hin : In x (insert p b) \/ dom b x) by (rewrite insert_In; unfold covered in Hx; tauto).
    destruct Hin as [Hin|Hd]; [|right; apply dom_step, Hd].
    exact (StronglySorted_firstn_cov _ count _ _ (insert_sorted p b Hs) Hin).
  Qed.

  (* the element [dominated] compares with is the farthest of a sorted list *)
  Lemma sorted_last b : SortedD b ->
    match last (map Some b) None with
    | Some w => In w b /\ forall y, In y b -> dist y <= dist w
    | None => b = []
    end.
  Proof.
    induction 1 as [|a b Hs IH Hf]; [reflexivity|]. destruct b as [|c b].
    - split; [left; reflexivity|]. intros y [<-|[]]. lia.
    - change (last (map Some (a :: c :: b)) None) with (last (map Some (c :: b)) None).
      destruct (last (map Some (c :: b)) None) as [w|]; [|discriminate IH]. destruct IH as [Hw Hm].
      split; [right; exact Hw|]. intros y [<-|Hy]; [|apply Hm, Hy].
      apply Forall_inv in Hf. specialize (Hm c (or_introl eq_refl)). unfold le_d in Hf. lia.
  Qed.

  Lemma dominated_dom b x : SortedD b -> (length b <= count)%nat -> dominated b x = true -> dom b x.
  Proof.
    unfold Model.Lookup.dominated. intros Hs Hl H. apply andb_true_iff in H. destruct H as [H1 H2].
    split; [lia|]. apply sorted_last in Hs.
    destruct (last (map Some b) None) as [w|]; [|discriminate].
    intros y Hy. apply Hs in Hy. lia.
  Qed.

  Definition keep (b qd : list pid) (x : pid) : bool := negb (mem x qd || dominated b x).

  Lemma pop_batch_pop b qd : forall c ql batch,
    pop_batch b qd c ql batch = pop (N.to_nat LK_ALPHA) (keep b qd) c ql batch.
  Proof.
    induction c as [|x c IH]; intros ql batch; cbn [Model.Lookup.pop_batch pop]; [reflexivity|].
    change (keep b qd x) with (negb (mem x qd || dominated b x)).
    destruct (mem x qd || dominated b x); cbn [negb]; rewrite IH; reflexivity.
  Qed.

  Record InvQ (c ql : list pid) : Prop := mkInvQ {
    q_nodup : NoDup c;
    q_cq : incl c ql;
    q_qc : incl ql c;
    q_noself : forall p, In p c -> ~ In p selfs_all }.

  Record InvB (b qd sn : list pid) : Prop := mkInvB {
    b_sent_nodup : NoDup sn;
    b_sent_queried : incl sn qd;
    b_queried_split : forall p, In p qd -> In p selfs_marked \/ In p sn;
    b_sent_noself : forall p, In p sn -> ~ In p selfs_all;
    b_sorted : SortedD b;
    b_len : (length b <= count)%nat;
    b_nodup : NoDup b;
    b_src : forall p, In p b -> p = self \/ (In p sn /\ reply p <> None);
    b_cov : forall p, (p = self /\ (0 < count)%nat) \/ (In p sn /\ reply p <> None) -> covered b p }.

  Definition InvS (s : st) : Prop :=
    InvQ (cand s) (queued s) /\ InvB (best s) (queried s) (sent s).

  Lemma InvQ_push c ql n : InvQ c ql -> ~ In n ql -> ~ In n selfs_all -> InvQ (c ++ [n]) (n :: ql).
  Proof.
    intros [H1 H2 H3 H4] Hq Hs. constructor; [apply NoDup_snoc; auto|intro y; rewrite in_app_iff; cbn [In]..].
    - intros [Hy|[<-|[]]]; auto.
    - intros [<-|Hy]; auto.
    - intros [Hy|[<-|[]]]; auto.
  Qed.

  Lemma InvQ_pop pre c' ql ql' :
    InvQ (pre ++ c') ql -> (forall y, In y ql' <-> In y ql /\ ~ In y pre) -> InvQ c' ql'.
  Proof.
    intros [Q1 Q2 Q3 Q4] E. apply NoDup_app_iff in Q1. destruct Q1 as [_ [N2 N3]]. constructor.
    - exact N2.
    - intros y Hy. apply E. split; [apply Q2, in_or_app; auto|]. intro Hp. exact (N3 y Hp Hy).
    - intros y Hy. apply E in Hy. destruct Hy as [Hy Hn]. apply Q3, in_app_or in Hy.
      destruct Hy; [contradiction|assumption].
    - intros y Hy. apply Q4, in_or_app. auto.
  Qed.

  (* Where a peer the lookup has learned of can be: nowhere in particular once a budget was
     hit; else already queried, one of the local ids, still queued, dominated by the current
     best, or among the ids [extra] still to be looked at in this round. *)
  Inductive Cov (s : st) (extra : list pid) (p : pid) : Prop :=
  | cov_cut : budget_hit s = true -> Cov s extra p
  | cov_queried : In p (queried s) -> Cov s extra p
  | cov_local : In p selfs_all -> Cov s extra p
  | cov_queued : In p (cand s) -> Cov s extra p
  | cov_dom : dom (best s) p -> Cov s extra p
  | cov_extra : In p extra -> Cov s extra p.
  Local Hint Constructors Cov : core.

  (* an id that is accounted for already need not be looked at *)
  Lemma Cov_drop s n extra x : Cov s extra n -> Cov s (n :: extra) x -> Cov s extra x.
  Proof. intros Hn [H|H|H|H|H|[<-|H]]; auto. Qed.

  (* the peers a lookup can come to know of: [init], and whatever a non-local peer it knows of names *)
  Inductive reached (init : list pid) : pid -> Prop :=
  | reached_init x : In x init -> reached init x
  | reached_named q l x : reached init q -> ~ In q selfs_all -> reply q = Some l -> In x l -> reached init x.

  Lemma reached_closed init U : incl init U ->
    (forall u l x, In u U -> reply u = Some l -> In x l -> In x U \/ In x selfs_all) ->
    forall x, reached init x -> In x U \/ In x selfs_all.
  Proof.
    intros Hi Hc. induction 1 as [x Hx|q l x _ IH Hq E Hx]; [left; apply Hi, Hx|].
    destruct IH as [IH|IH]; [exact (Hc q l x IH E Hx)|contradiction].
  Qed.

  (* the invariant of the whole lookup; every theorem of C01 but the request bound reads it off *)
  Definition Inv (init : list pid) (s : st) (extra : list pid) : Prop :=
    InvS s /\
    (forall x, In x (learned init (sent s)) -> Cov s extra x) /\
    (forall x, In x (cand s) \/ In x (sent s) \/ In x extra -> reached init x).

  Lemma consider_frame s n :
    queried (consider s n) = queried s /\ sent (consider s n) = sent s /\
    forall y, In y (cand (consider s n)) -> In y (cand s) \/ y = n.
  Proof.
    unfold Model.Lookup.consider. repeat case_if; cbn [queried sent cand]; repeat split; auto.
    intros y Hy. apply in_app_or in Hy. destruct Hy as [Hy|[<-|[]]]; auto.
  Qed.

  Lemma fold_consider_frame nodes : forall s,
    queried (fold_left consider nodes s) = queried s /\
    sent (fold_left consider nodes s) = sent s /\
    forall y, In y (cand (fold_left consider nodes s)) -> In y (cand s) \/ In y nodes.
  Proof.
    induction nodes as [|n nodes IH]; intro s; cbn [fold_left In]; [auto|].
    destruct (IH (consider s n)) as [-> [-> H]]. destruct (consider_frame s n) as [-> [-> G]].
    repeat split. intros y Hy. apply H in Hy. destruct Hy as [Hy|Hy]; [|auto].
    apply G in Hy. destruct Hy; auto.
  Qed.

  Lemma consider_step s n extra : InvS s ->
    InvS (consider s n) /\ forall x, Cov s (n :: extra) x -> Cov (consider s n) extra x.
  Proof.
    intros [HQ HB]. unfold InvS, Model.Lookup.consider.
    destruct (mem n (queried s) || mem n (queued s) || mem n selfs_all) eqn:E.
    - split; [auto|]. intro x. apply Cov_drop. rewrite !orb_true_iff, !mem_In in E.
      destruct E as [[E|E]|E]; [apply cov_queried|apply cov_queued, (q_qc _ _ HQ)|apply cov_local]; exact E.
    - destruct (dominated (best s) n) eqn:Ed.
      + split; [auto|]. intro x. apply Cov_drop, cov_dom, dominated_dom; [apply HB..|exact Ed].
      + case_if; cbn [best cand queried queued]; [split; [auto|]; intros x _; apply cov_cut; reflexivity|]. split.
        * split; [|exact HB]. rewrite !orb_false_iff, !mem_false in E. apply InvQ_push; tauto.
        * (* what was queued stays queued, and n joins the queue *)
          intros x [H|H|H|H|H|[<-|H]]; auto;
            apply cov_queued, in_or_app; [left; exact H|right; left; reflexivity].
  Qed.

  Lemma fold_consider_step nodes : forall s extra, InvS s ->
    InvS (fold_left consider nodes s) /\
    forall x, Cov s (nodes ++ extra) x -> Cov (fold_left consider nodes s) extra x.
  Proof.
    induction nodes as [|n nodes IH]; intros s extra H; cbn [fold_left app]; [auto|].
    destruct (consider_step s n (nodes ++ extra) H) as [H1 H2].
    destruct (IH _ extra H1) as [H3 H4]. auto.
  Qed.

  Lemma fold_consider_inv nodes : forall s, InvS s -> InvS (fold_left consider nodes s).
  Proof. intros s H. apply (fold_consider_step nodes s [] H). Qed.

  (* the ids peer p's answer names, and the state once p is marked and, if it answered, ranked *)
  Definition named (p : pid) : list pid := match reply p with Some l => l | None => [] end.
  Definition marked (s : st) (p : pid) : st :=
    mkSt (match reply p with Some _ => firstn count (insert p (best s)) | None => best s end)
         (cand s) (p :: queried s) (queued s) (p :: sent s) (budget_hit s).

  Lemma process_one_eq s p : process_one s p = fold_left consider (named p) (marked s p).
  Proof. unfold Model.Lookup.process_one, named, marked. destruct (reply p); reflexivity. Qed.

  Lemma fold_process_frame batch : forall s,
    queried (fold_left process_one batch s) = rev batch ++ queried s /\
    sent (fold_left process_one batch s) = rev batch ++ sent s.
  Proof.
    induction batch as [|p batch IH]; intro s; cbn [fold_left rev]; [auto|].
    destruct (IH (process_one s p)) as [-> ->]. rewrite process_one_eq.
    destruct (fold_consider_frame (named p) (marked s p)) as [-> [-> _]].
    rewrite <- !app_assoc. auto.
  Qed.

  Lemma InvB_step b qd sn p : In self selfs_all -> InvB b qd sn -> ~ In p qd -> ~ In p selfs_all ->
    InvB (match reply p with Some _ => firstn count (insert p b) | None => b end) (p :: qd) (p :: sn).
  Proof.
    intros Hself [H1 H2 H3 H4 H5 H6 H7 H8 H9] Hq Hs.
    assert (Hpb : ~ In p b) by (intro Hin; apply H8 in Hin; destruct Hin as [->|[Hin _]]; auto).
    constructor.
    - constructor; auto.
    - apply incl_cons; [left; reflexivity|apply incl_tl, H2].
    - intros y [<-|Hy]; [right; left; reflexivity|]. destruct (H3 y Hy); cbn [In]; auto.
    - intros y [<-|Hy]; auto.
    - destruct (reply p); [apply StronglySorted_firstn, insert_sorted|]; assumption.
    - destruct (reply p); [apply firstn_le_length|assumption].
    - destruct (reply p); [apply NoDup_firstn, insert_nodup|]; assumption.
    - intros y Hy.
      assert (Hy' : (p = y /\ reply p <> None) \/ In y b).
      { destruct (reply p); [|auto]. apply In_firstn, insert_In in Hy. intuition congruence. }
      cbn [In]. destruct Hy' as [[<- Hr]|Hy']; [auto|]. apply H8 in Hy'. destruct Hy' as [Hy'|[Hy' Hr]]; auto.
    - intros y Hy.
      assert (Hold : (p = y /\ reply p <> None) \/ covered b y).
      { destruct Hy as [Hy|[[<-|Hy] Hr]]; auto. }
      destruct Hold as [[E Hr]|Hc]; destruct (reply p); auto using covered_step; congruence.
  Qed.

  Lemma learned_cons init p req x :
    In x (learned init (p :: req)) <-> In x (named p) \/ In x (learned init req).
  Proof. unfold Model.Lookup.learned. cbn [flat_map]. fold (named p). rewrite !in_app_iff. tauto. Qed.

  Lemma process_one_step init s p rest : In self selfs_all ->
    Inv init s (p :: rest) -> ~ In p (queried s) -> ~ In p selfs_all -> Inv init (process_one s p) rest.
  Proof.
    intros Hself [[HQ HB] [HL HR]] Hq Hs. unfold Inv. rewrite process_one_eq.
    destruct (fold_consider_frame (named p) (marked s p)) as [_ [-> Hc]].
    destruct (fold_consider_step (named p) (marked s p) rest) as [H1 H2];
      [split; [exact HQ|apply InvB_step; assumption]|].
    split; [exact H1|split].
    - intros x Hx. apply H2. apply learned_cons in Hx.
      destruct Hx as [Hx|Hx]; [apply cov_extra, in_or_app; left; exact Hx|].
      destruct (HL x Hx) as [H|H|H|H|H|[<-|H]];
        [apply cov_cut|apply cov_queried; right|apply cov_local|apply cov_queued|apply cov_dom
        |apply cov_queried; left; reflexivity|apply cov_extra, in_or_app; right]; try exact H.
      cbn [marked best]. destruct (reply p); [apply dom_step|]; exact H.
    - cbn [marked cand sent In] in *. intros x [H|[[<-|H]|H]]; auto. apply Hc in H. destruct H as [H|H]; [auto|].
      unfold named in H. destruct (reply p) as [l|] eqn:El; [|destruct H].
      apply (reached_named init p l x); auto.
  Qed.

  Lemma fold_process_step init : In self selfs_all -> forall batch s, Inv init s batch -> NoDup batch ->
    (forall x, In x batch -> ~ In x (queried s) /\ ~ In x selfs_all) ->
    Inv init (fold_left process_one batch s) [].
  Proof.
    intro Hself. induction batch as [|p batch IH]; intros s HI Hnd Hb; cbn [fold_left]; [exact HI|].
    inv Hnd. destruct (Hb p (or_introl eq_refl)) as [Hq Hs].
    apply IH; [apply process_one_step; assumption|assumption|].
    intros x Hx. destruct (fold_process_frame [p] s) as [E _]. cbn [fold_left rev app] in E. rewrite E.
    destruct (Hb x (or_intror Hx)). cbn [In]. intuition congruence.
  Qed.

  Lemma alpha_pos : (0 < N.to_nat LK_ALPHA)%nat.
  Proof. apply Nat.ltb_lt. reflexivity. Qed.

  Lemma pop_inv init s c' q' batch : Inv init s [] ->
    pop_batch (best s) (queried s) (cand s) (queued s) [] = (c', q', batch) ->
    Inv init (mkSt (best s) c' (queried s) q' (sent s) (budget_hit s)) batch /\
    NoDup batch /\ (forall x, In x batch -> ~ In x (queried s) /\ ~ In x selfs_all) /\
    (batch = [] -> c' = []).
  Proof.
    intros [[HQ HB] [HL HR]] Ep. rewrite pop_batch_pop in Ep.
    apply pop_spec in Ep. destruct Ep as [pre [E1 [E2 [E3 [E4 _]]]]]. cbn [app] in E3. rewrite E1 in *.
    assert (Hk : forall x, In x batch <-> In x pre /\ ~ In x (queried s) /\ dominated (best s) x = false).
    { intro x. rewrite E3, filter_In. unfold keep. rewrite negb_true_iff, orb_false_iff, mem_false. clear. tauto. }
    split; [split; [split; [exact (InvQ_pop _ _ _ _ HQ E2)|exact HB]|split]|split; [|split]].
    - intros x Hx. destruct (HL x Hx) as [H|H|H|H|H|[]]; auto.
      (* x was queued: it still is, or it was taken into the batch, or dropped as queried or dominated *)
      rewrite E1 in H. apply in_app_or in H. destruct H as [H|H]; [|apply cov_queued, H].
      destruct (In_dec N.eq_dec x (queried s)) as [Hq|Hq]; [apply cov_queried, Hq|].
      destruct (dominated (best s) x) eqn:Ed; [|apply cov_extra, Hk; auto].
      apply cov_dom, dominated_dom; [apply HB..|exact Ed].
    - cbn [cand sent]. intros x [H|[H|H]]; apply HR; rewrite in_app_iff; [auto..|]. apply Hk in H. tauto.
    - rewrite E3. apply NoDup_filter. exact (NoDup_app_l _ _ (q_nodup _ _ HQ)).
    - intros x Hx. apply Hk in Hx. split; [tauto|]. apply (q_noself _ _ HQ), in_or_app. tauto.
    - intros ->. destruct E4 as [E4|E4]; [exact E4|]. pose proof alpha_pos. cbn [length] in E4. lia.
  Qed.

  Lemma loop_inv init : In self selfs_all -> forall fuel s, Inv init s [] ->
    Inv init (loop fuel s) [] /\ (cand (loop fuel s) = [] \/ budget_hit (loop fuel s) = true).
  Proof.
    intro Hself. induction fuel as [|f IH]; intros s HI; cbn [Model.Lookup.loop].
    - split; cbn [cand budget_hit]; [|destruct (cand s); [auto|]; rewrite orb_true_r; auto].
      destruct HI as [HS [HL HR]]. split; [exact HS|split; [|exact HR]].
      intros x Hx. destruct (HL x Hx) as [H|H|H|H|H|H]; auto.
      apply cov_cut. cbn [budget_hit]. rewrite H. reflexivity.
    - destruct (cand s) as [|c0 cl] eqn:Ec; [auto|]. rewrite <- Ec.
      destruct (pop_batch (best s) (queried s) (cand s) (queued s) []) as [[c' q'] batch] eqn:Ep.
      destruct (pop_inv _ _ _ _ _ HI Ep) as [HI0 [Hnd [Hb Hnil]]].
      pose proof (fold_process_step init Hself batch _ HI0 Hnd Hb) as HI1.
      destruct batch as [|p batch]; [|apply IH, HI1]. split; [exact HI1|]. left. apply Hnil. reflexivity.
  Qed.

  Lemma loop_sent_len fuel : forall s,
    (length (sent (loop fuel s)) <= length (sent s) + fuel * N.to_nat LK_ALPHA)%nat.
  Proof.
    induction fuel as [|f IH]; intro s; cbn [Model.Lookup.loop]; [cbn [sent]; lia|].
    destruct (cand s) as [|c0 cl] eqn:Ec; [lia|]. rewrite <- Ec.
    destruct (pop_batch (best s) (queried s) (cand s) (queued s) []) as [[c' q'] batch] eqn:Ep.
    rewrite pop_batch_pop in Ep. apply pop_spec in Ep. destruct Ep as [_ [_ [_ [_ [_ Hl]]]]]. cbn [length] in Hl.
    destruct batch as [|p batch]; [cbn [sent]; lia|].
    eapply Nat.le_trans; [apply IH|]. destruct (fold_process_frame (p :: batch) (mkSt (best s) c' (queried s) q' (sent s) (budget_hit s))) as [_ ->].
    rewrite app_length, rev_length. cbn [sent]. lia.
  Qed.

  Lemma init_state_inv init : NoDup init -> (forall p, In p init -> ~ In p selfs_all) ->
    Inv init (init_state init) [].
  Proof.
    intros Hnd Hi. split; [split|split]; cbn [Model.Lookup.init_state cand queued best queried sent].
    - constructor; [exact Hnd|apply incl_refl|apply incl_refl|exact Hi].
    - constructor.
      + constructor.
      + intros p [].
      + auto.
      + intros p [].
      + apply StronglySorted_firstn. repeat constructor.
      + apply firstn_le_length.
      + apply NoDup_firstn. repeat constructor. intros [].
      + intros p Hp. apply In_firstn in Hp. destruct Hp as [<-|[]]. auto.
      + intros p [[-> Hc]|[[] _]]. left. destruct count; [lia|]. left; reflexivity.
    - intros x Hx. unfold Model.Lookup.learned in Hx. cbn [flat_map] in Hx. rewrite app_nil_r in Hx.
      apply cov_queued, Hx.
    - intros x [H|[[]|[]]]. apply reached_init, H.
  Qed.

  (* What the invariant says of the final state.  Last clause: unless a budget cut the run, every
     peer the lookup learned of was sent a request, is a local id, or is no closer than the
     full result; it alone needs the ids marked beforehand to be local ids. *)
  Theorem lookup_inv init :
    NoDup init -> (forall p, In p init -> ~ In p selfs_all) -> In self selfs_all ->
    let s := lookup init in
    InvB (best s) (queried s) (sent s) /\
    (forall p, In p (sent s) -> reached init p) /\
    (budget_hit s = false -> incl selfs_marked selfs_all -> forall p, In p (learned init (sent s)) ->
       In p (sent s) \/ In p selfs_all \/ dom (best s) p).
  Proof.
    intros Hnd Hi Hself. unfold Model.Lookup.lookup. cbv zeta.
    destruct (loop_inv init Hself (N.to_nat LK_MAX_ITERATIONS) _ (init_state_inv init Hnd Hi))
      as [[[_ HB] [HL HR]] Hc].
    split; [exact HB|split; [auto|]]. intros Hbud Hm p Hp. destruct Hc as [Hc|Hc]; [|congruence].
    destruct (HL p Hp) as [H|H|H|H|H|[]]; [congruence| |auto|rewrite Hc in H; destruct H|auto].
    apply (b_queried_split _ _ _ HB) in H. destruct H as [H|H]; auto.
  Qed.

  (* A run not cut by a budget all of whose initial candidates answer: each of them is in the
     result or beyond it, and when there are [count] of them so is whatever is no closer than all
     of them.  (Full mesh, C01_full_mesh_exact, is the case where they are the [count] closest
     of all peers.) *)
  Theorem lookup_init_closest init :
    NoDup init -> (forall p, In p init -> ~ In p selfs_all) ->
    incl selfs_marked selfs_all -> In self selfs_marked ->
    (forall m, In m init -> reply m <> None) ->
    let s := lookup init in
    budget_hit s = false ->
    (forall m, In m init -> covered (best s) m) /\
    (length init = count -> forall x, (forall m, In m init -> dist m <= dist x) -> dom (best s) x).
  Proof.
    intros Hnd Hi Hm Hs Hans s Hbud.
    destruct (lookup_inv init Hnd Hi (Hm _ Hs)) as [HB [_ Hcomp]]. fold s in HB, Hcomp.
    assert (Hcov : forall m, In m init -> covered (best s) m).
    { intros m Hmi. destruct (Hcomp Hbud Hm m) as [H|[H|H]].
      - apply in_or_app. left; exact Hmi.
      - apply (b_cov _ _ _ HB). auto.
      - destruct (Hi m Hmi H).
      - right; exact H. }
    split; [exact Hcov|]. intros Hlc x Hfar.
    (* either the result holds every initial candidate, hence nothing else, or it is full of
       peers no farther than some initial candidate *)
    destruct (Forall_Exists_dec _ (fun m => in_dec N.eq_dec m (best s)) init) as [Hall|Hex].
    - rewrite Forall_forall in Hall. pose proof (NoDup_incl_length Hnd Hall). pose proof (b_len _ _ _ HB).
      split; [lia|]. intros w Hw. apply Hfar.
      revert w Hw. apply NoDup_length_incl; [exact Hnd|lia|exact Hall].
    - apply Exists_exists in Hex. destruct Hex as [m [Hmi Hnm]].
      destruct (Hcov m Hmi) as [Hin|[Hdl Hdw]]; [contradiction|].
      split; [exact Hdl|]. intros w Hw. eapply N.le_trans; [apply Hdw, Hw|apply Hfar, Hmi].
  Qed.

  (* the Boolean clauses of [spec_ok] from their Prop forms *)
  Lemma nodupb_NoDup l : NoDup l -> nodupb l = true.
  Proof.
    induction 1 as [|x l Hx Hl IH]; cbn [nodupb]; [reflexivity|].
    apply mem_false in Hx. rewrite Hx, IH. reflexivity.
  Qed.

  Lemma sorted_by_dist_true l : SortedD l -> sorted_by_dist keyof target l = true.
  Proof.
    induction 1 as [|x l Hs IH Hf]; [reflexivity|]. destruct l as [|y l']; [reflexivity|].
    change (sorted_by_dist keyof target (x :: y :: l'))
      with ((dist x <=? dist y) && sorted_by_dist keyof target (y :: l')).
    apply Forall_inv in Hf. unfold le_d in Hf. rewrite IH, andb_true_r. lia.
  Qed.

  Lemma dom_bool b x : (0 < count)%nat -> SortedD b -> dom b x ->
    ((count <=? length b)%nat &&
     match last (map Some b) None with Some w => dist w <=? dist x | None => false end) = true.
  Proof.
    intros Hc Hs [Hl Hw]. apply andb_true_iff; split; [apply Nat.leb_le; lia|].
    apply sorted_last in Hs. destruct (last (map Some b) None) as [w|].
    - apply N.leb_le, Hw, Hs.
    - subst b. cbn [length] in Hl. lia.
  Qed.

  Lemma covered_bool b x : (0 < count)%nat -> SortedD b -> covered b x ->
    mem x b || ((count <=? length b)%nat &&
                match last (map Some b) None with Some w => dist w <=? dist x | None => false end) = true.
  Proof.
    intros Hc Hs [H|H]; [apply mem_In in H; rewrite H; reflexivity|].
    rewrite (dom_bool _ _ Hc Hs H). apply orb_true_r.
  Qed.

  (* [spec_ok] holds of every observation (requests, result, cut) of which the conclusions of
     the theorems of C01 hold; the correspondence check evaluates it on the implementation's *)
  Lemma spec_ok_intro init qd req res cut : (0 < count)%nat -> InvB res qd req ->
    (length req <= N.to_nat LK_MAX_ITERATIONS * N.to_nat LK_ALPHA)%nat ->
    (cut = false -> forall p, In p (learned init req) -> In p req \/ In p selfs_all \/ dom res p) ->
    spec_ok keyof reply self selfs_all target count init req res cut = true.
  Proof.
    intros Hc HB Hlen Hcomplete. pose proof (b_sorted _ _ _ HB) as Hs. unfold spec_ok, answered.
    repeat (apply andb_true_iff; split).
    - apply Nat.leb_le. rewrite N2Nat.inj_mul. exact Hlen.
    - apply nodupb_NoDup, (b_sent_nodup _ _ _ HB).
    - apply forallb_forall. intros p Hp. apply negb_true_iff, mem_false, (b_sent_noself _ _ _ HB), Hp.
    - apply Nat.leb_le, (b_len _ _ _ HB).
    - apply nodupb_NoDup, (b_nodup _ _ _ HB).
    - apply sorted_by_dist_true, Hs.
    - apply forallb_forall. intros p Hp. apply orb_true_iff.
      destruct (b_src _ _ _ HB p Hp) as [->|[H1 H2]]; [left; apply N.eqb_refl|right].
      apply mem_In in H1. rewrite H1. destruct (reply p); [reflexivity|destruct (H2 eq_refl)].
    - apply forallb_forall. intros p Hp. rewrite <- orb_assoc.
      destruct (reply p) eqn:E; [|reflexivity]. apply (covered_bool _ _ Hc Hs), (b_cov _ _ _ HB).
      right. split; [exact Hp|congruence].
    - rewrite <- orb_assoc, (covered_bool _ _ Hc Hs); [apply orb_true_r|]. apply (b_cov _ _ _ HB). auto.
    - destruct cut; [reflexivity|]. apply forallb_forall. intros p Hp.
      destruct (Hcomplete eq_refl p Hp) as [H|[H|H]]; [apply mem_In in H; rewrite H..|rewrite (dom_bool _ _ Hc Hs H)];
        rewrite ?orb_true_r; reflexivity.
  Qed.
End LookupProofs.

(* the fields Props/ read off a hypothesis [HB : InvB ...], as [b_len HB] *)
Arguments b_sent_noself {_ _ _ _ _ _ _ _ _ _}.
Arguments b_len {_ _ _ _ _ _ _ _ _ _}.
Arguments b_nodup {_ _ _ _ _ _ _ _ _ _}.
Arguments b_src {_ _ _ _ _ _ _ _ _ _}.
Arguments b_cov {_ _ _ _ _ _ _ _ _ _}.
