(* C15, Model/CloseGroup.v.  The verdict of [validate_membership] is the boolean specification
   [accept_spec] ([valid_spec]); the specifications unfold into arithmetic propositions
   ([bft_accept_spec_iff], [weighted_accept_spec_iff]), and everything else is proved about
   those.  Flip monotonicity goes through the position-wise relation [flipped], the collusion
   flag through sorted latencies with gaps of at least the window ([gapped]). *)
From SV Require Import Lib.Base Gen.CloseGroupConsts Model.CloseGroup.
From SV Require Lib.Isort.
From Coq Require Import QArith Lqa Permutation.
Local Open Scope Q_scope.

Lemma Qle_div_iff a b c : 0 < c -> (a <= b / c <-> a * c <= b).
Proof.
  intro Hc. split; intro H.
  - apply (Qmult_le_r _ _ c Hc) in H. setoid_replace (b / c * c) with b in H; auto.
    field. intro E. rewrite E in Hc. discriminate.
  - apply Qle_shift_div_l; assumption.
Qed.

Lemma Qmult_le_self a x : a <= 1 -> 0 <= x -> a * x <= x.
Proof. nra. Qed.

Global Instance Qltb_comp : Proper (Qeq ==> Qeq ==> eq) Qltb.
Proof. intros a a' Ha b b' Hb. unfold Qltb. rewrite Ha, Hb. reflexivity. Qed.

Lemma Qltb_iff a b : Qltb a b = true <-> a < b.
Proof.
  unfold Qltb. rewrite Bool.negb_true_iff, <- Bool.not_true_iff_false, Qle_bool_iff.
  split; [apply Qnot_le_lt | apply Qlt_not_le].
Qed.

Lemma Qltb_false_iff a b : Qltb a b = false <-> b <= a.
Proof. unfold Qltb. rewrite Bool.negb_false_iff. apply Qle_bool_iff. Qed.

Lemma QofN_le a b : QofN a <= QofN b <-> (a <= b)%N.
Proof. unfold QofN. rewrite <- Zle_Qle. lia. Qed.

Lemma QofN_nonneg n : 0 <= QofN n.
Proof. apply (QofN_le 0), N.le_0_l. Qed.

Lemma QofN_pos n : (0 < n)%N -> 0 < QofN n.
Proof. intro H. unfold QofN. change 0 with (inject_Z 0). rewrite <- Zlt_Qlt. lia. Qed.

Lemma QofN_add a b : QofN (a + b) == QofN a + QofN b.
Proof. unfold QofN. rewrite N2Z.inj_add, inject_Z_plus. reflexivity. Qed.

Lemma QofN_mul a b : QofN (a * b) == QofN a * QofN b.
Proof. unfold QofN. rewrite N2Z.inj_mul, inject_Z_mult. reflexivity. Qed.

Lemma lenN_filter_le {A} (p : A -> bool) l : (lenN (filter p l) <= lenN l)%N.
Proof.
  unfold lenN. induction l as [|x l IH]; cbn [filter length]. lia.
  destruct (p x); cbn [length]; lia.
Qed.

Lemma lenN_cons {A} (x : A) l : lenN (x :: l) = (lenN l + 1)%N.
Proof. unfold lenN. cbn [length]. lia. Qed.

(* the two accumulating loops are sums *)
Lemma total_weight_sum rs : total_weight rs == sumQ (map weight_of rs).
Proof.
  unfold total_weight.
  enough (H : forall a, fold_left (fun acc r => acc + weight_of r) rs a == a + sumQ (map weight_of rs))
    by (rewrite H; ring).
  induction rs as [|r rs IH]; intro a; cbn [fold_left map sumQ]; [|rewrite IH]; ring.
Qed.

Lemma confirming_weight_sum rs : confirming_weight rs == sumQ (map weight_of (filter r_confirms rs)).
Proof.
  unfold confirming_weight.
  enough (H : forall a, fold_left (fun acc r => if r_confirms r then acc + weight_of r else acc) rs a
                        == a + sumQ (map weight_of (filter r_confirms rs)))
    by (rewrite H; ring).
  induction rs as [|r rs IH]; intro a; cbn [fold_left filter]; [cbn; ring|].
  rewrite IH. destruct (r_confirms r); cbn [map sumQ]; ring.
Qed.

Lemma weight_bounds r : 0 <= weight_of r <= 1.
Proof.
  unfold weight_of. destruct (Qle_bool 0 _) eqn:E; [|split; discriminate].
  destruct (Qle_bool _ 1) eqn:F; [split; apply Qle_bool_iff; assumption|split; discriminate].
Qed.

Lemma weight_le_one r : weight_of r <= 1.
Proof. apply weight_bounds. Qed.

Lemma sum_weights_nonneg rs : 0 <= sumQ (map weight_of rs).
Proof.
  induction rs as [|r rs IH]; cbn [map sumQ]. apply Qle_refl.
  pose proof (weight_bounds r). lra.
Qed.

Lemma confirming_le_total rs : sumQ (map weight_of (filter r_confirms rs)) <= sumQ (map weight_of rs).
Proof.
  induction rs as [|r rs IH]; cbn [filter map sumQ]. apply Qle_refl.
  pose proof (weight_bounds r). destruct (r_confirms r); cbn [map sumQ]; lra.
Qed.

(* the f64 ratio test, cross-multiplied *)
Lemma ge_thr_nratio a n thr :
  ge_thr (nratio a n) thr = (0 <? n)%N && Qle_bool (thr * QofN n) (QofN a).
Proof.
  unfold nratio, ge_thr. destruct (N.eqb_spec n 0) as [->|E]; [reflexivity|].
  assert (P : (0 < n)%N) by lia. rewrite (proj2 (N.ltb_lt 0 n) P). cbn [andb].
  apply Bool.eq_iff_eq_true. rewrite !Qle_bool_iff. apply Qle_div_iff, QofN_pos, P.
Qed.

(* The two gates of [validate_membership].  Shut: a rejection that names its reason, without the
   BFT flag.  Open: the first two tests of [validate_membership] are false. *)
Lemma gates_cases c attack rs cand : let m := validate_membership c attack rs cand in
  (gates_ok c rs cand = false /\ v_valid m = false /\ v_fail m <> [] /\ v_bft m = false)
  \/ (gates_ok c rs cand = true /\ (lenN rs <? c_min_peers c)%N = false /\ candidate_low c cand = false).
Proof.
  unfold validate_membership, gates_ok. rewrite (N.ltb_antisym (c_min_peers c) (lenN rs)).
  destruct (c_min_peers c <=? lenN rs)%N; cbn [negb andb]; [|left; repeat split; discriminate].
  destruct (candidate_low c cand); [left; repeat split; discriminate|right; repeat split].
Qed.

(* the decision is the specification *)
Lemma valid_bft_spec c rs cand :
  v_valid (validate_membership c true rs cand) = bft_accept_spec c rs cand.
Proof.
  unfold bft_accept_spec.
  destruct (gates_cases c true rs cand) as [(-> & V & _)|(-> & E1 & E2)]; [exact V|].
  unfold validate_membership. rewrite E1, E2. cbn [andb].
  unfold validate_bft.
  rewrite (N.ltb_antisym (c_min_peers c) (lenN (trusted c rs))).
  destruct (c_min_peers c <=? lenN (trusted c rs))%N; cbn [negb andb v_valid];
    [|destruct (count_confirming_regions rs <? c_min_regions c)%N; reflexivity].
  rewrite ge_thr_nratio.
  rewrite (N.ltb_antisym (c_min_regions c) (count_confirming_regions rs)).
  destruct (detect_collusion (map r_latency (trusted c rs))); cbn [negb andb v_valid].
  - rewrite !Bool.andb_false_r. reflexivity.
  - destruct ((0 <? lenN (trusted c rs))%N && Qle_bool _ _);
      destruct (c_min_regions c <=? count_confirming_regions rs)%N; reflexivity.
Qed.

Lemma valid_weighted_spec c rs cand :
  v_valid (validate_membership c false rs cand) = weighted_accept_spec c rs cand.
Proof.
  unfold weighted_accept_spec.
  destruct (gates_cases c false rs cand) as [(-> & V & _)|(-> & E1 & E2)]; [exact V|].
  unfold validate_membership. rewrite E1, E2. cbn [andb].
  unfold validate_weighted. rewrite Bool.andb_false_r. cbn [v_valid].
  rewrite total_weight_sum.
  destruct (Qltb 0 (sumQ (map weight_of rs))) eqn:E; cbn [ge_thr]; [|reflexivity].
  apply Qltb_iff in E. apply Bool.eq_iff_eq_true. rewrite !Qle_bool_iff.
  rewrite confirming_weight_sum, total_weight_sum. apply Qle_div_iff, E.
Qed.

Lemma valid_spec c attack rs cand :
  v_valid (validate_membership c attack rs cand) = accept_spec c attack rs cand.
Proof. destruct attack; [apply valid_bft_spec | apply valid_weighted_spec]. Qed.

Lemma used_bft_flag c attack rs cand :
  v_bft (validate_membership c attack rs cand) = attack && gates_ok c rs cand.
Proof.
  destruct (gates_cases c attack rs cand) as [(-> & _ & _ & B)|(-> & E1 & E2)];
    [rewrite Bool.andb_false_r; exact B|].
  unfold validate_membership. rewrite E1, E2.
  destruct (if attack then validate_bft c rs else validate_weighted c rs) as [[[ok ra] we] fa].
  cbn [v_bft]. now rewrite Bool.andb_true_r.
Qed.

(* the specifications unfolded into propositions *)
Lemma bft_accept_spec_iff c rs cand :
  bft_accept_spec c rs cand = true <->
  ((c_min_peers c <= lenN rs)%N /\ candidate_low c cand = false
   /\ (c_min_peers c <= lenN (trusted c rs))%N /\ (0 < lenN (trusted c rs))%N
   /\ c_thr_bft c * QofN (lenN (trusted c rs)) <= QofN (confirmations (trusted c rs))
   /\ (c_min_regions c <= count_confirming_regions rs)%N
   /\ detect_collusion (map r_latency (trusted c rs)) = false).
Proof.
  unfold bft_accept_spec, gates_ok.
  rewrite !Bool.andb_true_iff, !Bool.negb_true_iff, !N.leb_le, N.ltb_lt, Qle_bool_iff. tauto.
Qed.

Lemma weighted_accept_spec_iff c rs cand :
  weighted_accept_spec c rs cand = true <->
  ((c_min_peers c <= lenN rs)%N /\ candidate_low c cand = false
   /\ let tw := sumQ (map weight_of rs) in
      let cw := sumQ (map weight_of (filter r_confirms rs)) in
      (0 < tw /\ c_thr_weighted c * tw <= cw) \/ (tw <= 0 /\ c_thr_weighted c <= 0)).
Proof.
  unfold weighted_accept_spec, gates_ok. cbv zeta.
  rewrite !Bool.andb_true_iff, !Bool.negb_true_iff, N.leb_le.
  destruct (Qltb 0 (sumQ (map weight_of rs))) eqn:E; rewrite Qle_bool_iff;
    [apply Qltb_iff in E | apply Qltb_false_iff in E]; intuition lra.
Qed.

(* fewer than a third of the trusted witnesses cannot force acceptance *)
Lemma bft_minority_rejected c rs cand :
  (1 # 3) <= c_thr_bft c ->
  (3 * confirmations (trusted c rs) < lenN (trusted c rs))%N ->
  bft_accept_spec c rs cand = false.
Proof.
  intros Hthr Hmin. apply Bool.not_true_is_false. intro E.
  apply bft_accept_spec_iff in E. destruct E as (_ & _ & _ & _ & Hq & _).
  pose proof (QofN_nonneg (lenN (trusted c rs))) as P.
  assert (H : QofN (lenN (trusted c rs)) <= QofN (3 * confirmations (trusted c rs))).
  { rewrite QofN_mul. change (QofN 3) with 3. nra. }
  apply QofN_le in H. lia.
Qed.

Lemma flip_le_refl r : flip_le r r.
Proof. repeat split; auto. Qed.

Lemma flipped_refl rs : flipped rs rs.
Proof. induction rs; constructor; auto using flip_le_refl. Qed.

Lemma flip_at_flipped i : forall rs, flipped (flip_at i rs) rs.
Proof.
  induction i as [|i IH]; intros [|r rs]; cbn [flip_at]; constructor.
  - repeat split; auto. cbn. discriminate.
  - apply flipped_refl.
  - apply flip_le_refl.
  - apply IH.
Qed.

Lemma flipped_lenN rs' rs : flipped rs' rs -> lenN rs' = lenN rs.
Proof. induction 1; rewrite ?lenN_cons; congruence. Qed.

Lemma flipped_gates c rs' rs cand : flipped rs' rs -> gates_ok c rs' cand = gates_ok c rs cand.
Proof. intro H. unfold gates_ok. rewrite (flipped_lenN _ _ H). reflexivity. Qed.

Lemma flip_le_weight r' r : flip_le r' r -> weight_of r' = weight_of r.
Proof. intros (Ht & _). unfold weight_of. rewrite Ht. reflexivity. Qed.

Lemma flipped_trusted c rs' rs : flipped rs' rs -> flipped (trusted c rs') (trusted c rs).
Proof.
  induction 1 as [|r' r rs' rs H _ IH]; cbn [trusted filter]. constructor.
  assert (E : is_trusted c r' = is_trusted c r).
  { unfold is_trusted. destruct H as (Ht & _). rewrite Ht. reflexivity. }
  rewrite E. destruct (is_trusted c r); [constructor; assumption | exact IH].
Qed.

(* What flipping does to the quantities the decisions look at.  At each position either both
   responses confirm and contribute the same, or the flipped one contributes nothing. *)
Lemma flipped_facts rs' rs : flipped rs' rs ->
  map r_latency rs' = map r_latency rs /\ map weight_of rs' = map weight_of rs
  /\ (confirmations rs' <= confirmations rs)%N
  /\ incl (confirming_regions rs') (confirming_regions rs)
  /\ sumQ (map weight_of (filter r_confirms rs')) <= sumQ (map weight_of (filter r_confirms rs)).
Proof.
  unfold confirmations, confirming_regions.
  induction 1 as [|r' r rs' rs H _ (IHl & IHw & IHc & IHr & IHs)]; cbn [map filter flat_map].
  - repeat split; [lia|apply incl_refl|apply Qle_refl].
  - pose proof (flip_le_weight _ _ H) as W. pose proof (weight_bounds r) as P.
    destruct H as (_ & Hg & Hl & Hc). rewrite W, Hl, Hg, IHl, IHw.
    split; [reflexivity|]. split; [reflexivity|].
    destruct (r_confirms r'); [rewrite (Hc eq_refl)|destruct (r_confirms r)];
      cbn [map sumQ app]; rewrite ?lenN_cons, ?W.
    + (* both confirm *)
      split; [lia|]. split; [exact (incl_app_app (incl_refl _) IHr)|lra].
    + (* only [r] confirms *)
      split; [lia|]. split; [exact (incl_appr _ IHr)|lra].
    + (* neither confirms *)
      split; [exact IHc|]. split; [exact IHr|exact IHs].
Qed.

Lemma flip_monotone_bft c rs' rs cand : flipped rs' rs ->
  bft_accept_spec c rs' cand = true -> bft_accept_spec c rs cand = true.
Proof.
  intros H A. apply bft_accept_spec_iff in A. apply bft_accept_spec_iff.
  destruct A as (A1 & A2 & A3 & A4 & A5 & A6 & A7).
  pose proof (flipped_trusted c _ _ H) as HT.
  destruct (flipped_facts _ _ HT) as (El & _ & Hc & _). destruct (flipped_facts _ _ H) as (_ & _ & _ & Hr & _).
  rewrite <- (flipped_lenN _ _ H), <- (flipped_lenN _ _ HT), <- El.
  repeat split; auto.
  - eapply Qle_trans; [exact A5|]. apply QofN_le, Hc.
  - unfold count_confirming_regions, lenN in *.
    enough (length (nodup N.eq_dec (confirming_regions rs'))
            <= length (nodup N.eq_dec (confirming_regions rs)))%nat by lia.
    apply NoDup_incl_length; [apply NoDup_nodup|].
    intros x. rewrite !nodup_In. apply Hr.
Qed.

Lemma flip_monotone_weighted c rs' rs cand : flipped rs' rs ->
  weighted_accept_spec c rs' cand = true -> weighted_accept_spec c rs cand = true.
Proof.
  intros H A. apply weighted_accept_spec_iff in A. apply weighted_accept_spec_iff.
  destruct A as (A1 & A2 & A3). cbv zeta in *.
  destruct (flipped_facts _ _ H) as (_ & Ew & _ & _ & Hs).
  rewrite <- (flipped_lenN _ _ H), <- Ew.
  repeat split; auto. destruct A3 as [[B C]|[B C]]; [left|right]; split; auto.
  eapply Qle_trans; [exact C|exact Hs].
Qed.

Lemma flip_monotone c attack rs' rs cand : flipped rs' rs ->
  v_valid (validate_membership c attack rs' cand) = true ->
  v_valid (validate_membership c attack rs cand) = true.
Proof.
  rewrite !valid_spec. destruct attack; [apply flip_monotone_bft | apply flip_monotone_weighted].
Qed.

(* consecutive elements increase by at least [w]: what [similar_count] needs to stay at 0 *)
Fixpoint gapped (w : N) (l : list N) : Prop :=
  match l with
  | a :: t => match t with b :: _ => (a + w <= b)%N | [] => True end /\ gapped w t
  | [] => True
  end.

Lemma insert_gapped w x l : Forall (apart w x) l -> gapped w l -> gapped w (insert x l).
Proof.
  induction l as [|z l IH]; intros F G; cbn [insert]; [cbn; auto|].
  inversion F as [|? ? Az Fl]; subst. unfold apart in Az. cbn [gapped] in G.
  destruct (N.leb_spec x z); cbn [gapped]; [split; [lia|exact G]|].
  split; [|apply IH; tauto].
  destruct l as [|u l]; cbn [insert]; [lia|]. destruct (x <=? u)%N; lia.
Qed.

Lemma isort_gapped w l : pairwise_apart w l -> gapped w (isort l).
Proof.
  induction 1 as [|x l F _ IH]; cbn [isort fold_right]; [exact I|].
  (* the model's [isort] is that of Lib/Isort.v at [N.leb] *)
  apply insert_gapped; [exact (Permutation_Forall (Isort.isort_perm N.leb l) F)|exact IH].
Qed.

Lemma similar_count_gapped w l : gapped w l -> similar_count w l = 0%N.
Proof.
  induction l as [|a t IH]; [reflexivity|]. cbn [gapped similar_count]. intros [G1 G2].
  rewrite (IH G2). destruct t as [|b t]; [reflexivity|]. destruct (N.ltb_spec (b - a) w); lia.
Qed.

(* fewer than three trusted answers never raise the flag *)
Lemma no_collusion_when_few lats : (lenN lats < CG_COLLUSION_MIN_RESPONSES)%N -> detect_collusion lats = false.
Proof. intro H. unfold detect_collusion. apply N.ltb_lt in H. rewrite H. reflexivity. Qed.

Lemma rejected_has_reason c attack rs cand :
  v_valid (validate_membership c attack rs cand) = false -> v_fail (validate_membership c attack rs cand) <> [].
Proof.
  destruct (gates_cases c attack rs cand) as [(_ & _ & F & _)|(_ & E1 & E2)]; [intros _; exact F|].
  unfold validate_membership. rewrite E1, E2.
  destruct attack.
  - unfold validate_bft.
    destruct (lenN (trusted c rs) <? c_min_peers c)%N;
      [| destruct (detect_collusion (map r_latency (trusted c rs)));
         destruct (ge_thr (nratio (confirmations (trusted c rs)) (lenN (trusted c rs))) (c_thr_bft c)) ];
      destruct (count_confirming_regions rs <? c_min_regions c)%N; cbn; intros; congruence.
  - unfold validate_weighted.
    destruct (ge_thr _ (c_thr_weighted c));
      destruct (count_confirming_regions rs <? c_min_regions c)%N; cbn; intros; congruence.
Qed.

Lemma validate_cached_strict c v : c_strict c = true -> validate_cached c (Some v) = v.
Proof. intro H. unfold validate_cached. rewrite H, Bool.andb_false_r. reflexivity. Qed.

Lemma validate_cached_logonly c o : c_strict c = false -> validate_cached c o = true.
Proof. intro H. unfold validate_cached. rewrite H. destruct o as [[|]|]; reflexivity. Qed.

Lemma enforcement c attack rs cand :
  let v := v_valid (validate_membership c attack rs cand) in
  (c_strict c = true -> validate_cached c (Some v) = v)
  /\ (c_strict c = false -> validate_cached c (Some v) = true)
  /\ validate_cached c None = negb (c_strict c).
Proof.
  cbv zeta. split; [apply validate_cached_strict | split; [apply validate_cached_logonly | reflexivity]].
Qed.

Lemma nv_inv ops : let s := nv_run ops in
  (nv_conf s + nv_deny s <= nv_total s)%N /\ nv_total s = lenN ops.
Proof.
  induction ops as [|o ops IH] using rev_ind; cbv zeta in *; [cbn; lia|].
  unfold nv_run, lenN in *. rewrite fold_left_app, app_length.
  destruct o; cbn [fold_left nv_step nv_conf nv_deny nv_total length]; lia.
Qed.

Lemma nv_is_valid_iff ops : nv_is_valid (nv_run ops) = true <-> (nv_total (nv_run ops) < 2 * nv_conf (nv_run ops))%N.
Proof.
  destruct (nv_inv ops) as (A & _). unfold nv_is_valid. change NV_MAJORITY_DIV with 2%N.
  rewrite Bool.andb_true_iff, !N.ltb_lt. lia.
Qed.

Lemma required_confirmations_eq f : required_confirmations f = (2 * f + 1)%N.
Proof. reflexivity. Qed.
Lemma minimum_witnesses_eq f : minimum_witnesses f = (3 * f + 1)%N.
Proof. reflexivity. Qed.

Lemma nv_is_valid_bft_iff f s : nv_is_valid_bft f s = true <-> (2 * f + 1 <= nv_conf s)%N.
Proof. unfold nv_is_valid_bft. rewrite required_confirmations_eq. apply N.leb_le. Qed.

Lemma nv_sufficient_iff f s : nv_sufficient f s = true <-> (3 * f + 1 <= nv_total s)%N.
Proof. unfold nv_sufficient. rewrite minimum_witnesses_eq. apply N.leb_le. Qed.
