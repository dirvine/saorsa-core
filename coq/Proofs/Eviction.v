(* Lemmas about Model/Eviction.v: the incremental state of the manager is, for every history,
   the policy read off the history. *)
From SV Require Import Lib.Base Model.Eviction.
Local Open Scope N_scope.

Section EvP.
  Context {T : Type}.
  Notation ev := (@ev T).
  Notation st := (@st T).
  Notation cfg := (@cfg T).

  Lemma run_snoc : forall (h : list ev) e, run (h ++ [e]) = step (run h) e.
  Proof. intros. unfold run, run_from. rewrite fold_left_app. reflexivity. Qed.

  Lemma untracked_zero : forall p (rh : list ev), tracked p rh = false -> fails_since p rh = 0.
  Proof.
    induction rh as [|e tl IH]; intro H; [reflexivity|].
    destruct e as [q|q|q t|q r|q]; cbn [tracked fails_since] in *; try (destruct (q =? p); [try discriminate; try reflexivity|]); auto.
  Qed.

  Definition spec_pstate (p : N) (rh : list ev) : pstate :=
    mkP (if tracked p rh then Some (fails_since p rh) else None) (last_trust p rh) (last_mark p rh).

  Lemma run_spec : forall (h : list ev) p, s_of (run h) p = spec_pstate p (rev h).
  Proof.
    induction h as [|e h IH] using rev_ind; intro p; [reflexivity|].
    rewrite run_snoc, rev_app_distr. cbn [rev app].
    destruct e as [q|q|q t|q r|q]; cbn [step upd s_of]; rewrite (N.eqb_sym p q);
      unfold spec_pstate; cbn [tracked fails_since last_trust last_mark];
      destruct (q =? p) eqn:E; try (rewrite IH; reflexivity);
      apply N.eqb_eq in E; subst q; rewrite ?IH; unfold spec_pstate; cbn [p_fails p_trust p_mark]; try reflexivity.
    - destruct (tracked p (rev h)) eqn:Tr.
      + f_equal. f_equal. lia.
      + rewrite (untracked_zero _ _ Tr). reflexivity.
  Qed.

  Lemma fails_since_le_length : forall p (rh : list ev), fails_since p rh <= N.of_nat (length rh).
  Proof.
    induction rh as [|e tl IH]; [cbn; lia|].
    destruct e as [q|q|q t|q r|q]; cbn [fails_since length]; try (destruct (q =? p)); lia.
  Qed.

  (* after a success the peer needs max_fail further failures of its own *)
  Lemma fails_since_after_success : forall p (h1 h2 : list ev),
    fails_since p (rev (h1 ++ Success p :: h2)) <= N.of_nat (length h2).
  Proof.
    intros p h1 h2. rewrite rev_app_distr. cbn [rev]. rewrite <- app_assoc, <- (rev_length h2). cbn [app].
    induction (rev h2) as [|e tl IH]; cbn [app fails_since length].
    - rewrite N.eqb_refl. lia.
    - destruct e as [q|q|q t|q r|q]; try (destruct (q =? p)); lia.
  Qed.

  Variable ltb : T -> T -> bool.

  Lemma reason_spec : forall (c : cfg) (h : list ev) p,
    reason_of ltb c (s_of (run h) p) = policy_reason ltb c p (rev h).
  Proof.
    intros c h p. rewrite run_spec. unfold reason_of, policy_reason, spec_pstate, fails_evict, trust_evict, fails_of.
    cbn [p_mark p_fails p_trust].
    destruct (last_mark p (rev h)); [reflexivity|].
    destruct (tracked p (rev h)); cbn [andb]; [destruct (max_fail c <=? fails_since p (rev h)); [reflexivity|]|];
      (destruct (last_trust p (rev h)) as [t|]; [destruct (ltb t (min_trust c))|]; reflexivity).
  Qed.

  Lemma policy_reason_some : forall (c : cfg) p (rh : list ev),
    policy_reason ltb c p rh <> None <->
    (tracked p rh = true /\ max_fail c <= fails_since p rh) \/
    (exists t, last_trust p rh = Some t /\ ltb t (min_trust c) = true) \/
    (exists r, last_mark p rh = Some r).
  Proof.
    intros c p rh. unfold policy_reason. split.
    - intro H. destruct (last_mark p rh) as [r|]; [eauto|].
      destruct (tracked p rh && (max_fail c <=? fails_since p rh)) eqn:Fl.
      + apply andb_true_iff in Fl. rewrite N.leb_le in Fl. left. exact Fl.
      + destruct (last_trust p rh) as [t|]; [|contradiction]. destruct (ltb t (min_trust c)) eqn:Lt; [eauto|contradiction].
    - intros [[Tr Fl]|[[t [Lt Lo]]|[r M]]]; (destruct (last_mark p rh); [discriminate|]).
      + rewrite Tr, (proj2 (N.leb_le _ _) Fl). discriminate.
      + destruct (_ && _); [discriminate|]. rewrite Lt, Lo. discriminate.
      + discriminate M.
  Qed.

  Lemma candidate_iff : forall (c : cfg) (h : list ev) p,
    let rh := rev h in
    is_candidate ltb c (s_of (run h) p) = true <->
    (tracked p rh = true /\ max_fail c <= fails_since p rh) \/
    (exists t, last_trust p rh = Some t /\ ltb t (min_trust c) = true) \/
    (exists r, last_mark p rh = Some r).
  Proof.
    intros c h p rh. unfold is_candidate. rewrite reason_spec. fold rh. rewrite <- policy_reason_some.
    destruct (policy_reason ltb c p rh); split; congruence.
  Qed.

  (* with a positive failure limit "tracked" is implied by the count *)
  Lemma candidate_iff_pos : forall (c : cfg) (h : list ev) p, 0 < max_fail c ->
    let rh := rev h in
    is_candidate ltb c (s_of (run h) p) = true <->
    max_fail c <= fails_since p rh \/
    (exists t, last_trust p rh = Some t /\ ltb t (min_trust c) = true) \/
    (exists r, last_mark p rh = Some r).
  Proof.
    intros c h p Hpos rh. rewrite candidate_iff. fold rh. split.
    - intros [[_ H]|H]; [left; exact H|right; exact H].
    - intros [H|H]; [|right; exact H]. left. split; [|exact H].
      destruct (tracked p rh) eqn:Tr; [reflexivity|]. rewrite (untracked_zero _ _ Tr) in H. lia.
  Qed.

  Lemma seen_run : forall (h : list ev) p, ~ In p (s_seen (run h)) -> s_of (run h) p = p0.
  Proof.
    induction h as [|e h IH] using rev_ind; intros p Hp; [reflexivity|]. rewrite run_snoc in *.
    destruct e as [q|q|q t|q r|q]; cbn [step upd s_of s_seen] in *;
      (destruct (p =? q) eqn:E; [apply N.eqb_eq in E; subst; exfalso; apply Hp; left; reflexivity|
                                 apply IH; intro; apply Hp; right; assumption]).
  Qed.

  Lemma dedupN_in : forall l x, In x (dedupN l) <-> In x l.
  Proof.
    induction l as [|y l IH]; intro x; cbn [dedupN]; [tauto|].
    cbn [In]. rewrite filter_In, IH. destruct (N.eqb_spec x y); cbn [negb]; intuition congruence.
  Qed.
  Lemma dedupN_nodup : forall l, NoDup (dedupN l).
  Proof.
    induction l as [|y l IH]; cbn [dedupN]; constructor.
    - rewrite filter_In. intros [_ H]. rewrite N.eqb_refl in H. discriminate.
    - apply NoDup_filter. exact IH.
  Qed.

  Lemma candidates_in_gen : forall (c : cfg) (s : st) l p r,
    In (p, r) (flat_map (fun p => match reason_of ltb c (s_of s p) with Some r => [(p, r)] | None => [] end) l) <->
    In p l /\ reason_of ltb c (s_of s p) = Some r.
  Proof.
    intros c s l p r. rewrite in_flat_map. split.
    - intros [q [Hq H]]. destruct (reason_of ltb c (s_of s q)) as [r'|] eqn:E; [|destruct H].
      destruct H as [H|[]]. injection H as <- <-. split; assumption.
    - intros [Hp H]. exists p. split; [exact Hp|]. rewrite H. left. reflexivity.
  Qed.

  Lemma candidates_in : forall (c : cfg) (h : list ev) p r,
    In (p, r) (candidates ltb c (run h)) <-> reason_of ltb c (s_of (run h) p) = Some r.
  Proof.
    intros c h p r. unfold candidates. rewrite candidates_in_gen, dedupN_in. split; [tauto|].
    intro H. split; [|exact H].
    destruct (in_dec N.eq_dec p (s_seen (run h))) as [I|I]; [exact I|].
    rewrite (seen_run h p I) in H. discriminate.
  Qed.

  Lemma candidates_nodup : forall (c : cfg) (s : st), NoDup (map fst (candidates ltb c s)).
  Proof.
    intros c s. unfold candidates. generalize (dedupN_nodup (s_seen s)).
    induction (dedupN (s_seen s)) as [|q l IH]; intro ND; cbn [flat_map]; [constructor|].
    inversion ND as [|? ? Hq ND']; subst. rewrite map_app.
    destruct (reason_of ltb c (s_of s q)) as [r|]; cbn [map app fst]; [|apply IH, ND'].
    constructor; [|apply IH, ND'].
    rewrite in_map_iff. intros [[p r'] [E H]]. cbn [fst] in E. subst p.
    apply candidates_in_gen in H. tauto.
  Qed.
End EvP.
