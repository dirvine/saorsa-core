(* Lemmas for the inbound paths (Model/Wire.v): one walk over the paths of a handler shows that
   it keeps the cap on stored values and caps what it serves ([dht_handle_inv],
   [core_handle_inv]); [run_inv] carries that to every sequence of frames. *)
From SV Require Import Lib.Base Lib.Bytes Model.Postcard Gen.Schemas Gen.WireConsts Model.Wire.
Local Open Scope N_scope.

(* the generated schemas satisfy the side conditions of the codec theorems *)
Lemma schema_ok : forall t, In t all_schemas -> ty_ok t = true.
Proof. apply forallb_forall. vm_compute. reflexivity. Qed.

Lemma roots_in_all : forall t, In t root_schemas -> In t all_schemas.
Proof.
  intros t H. repeat (destruct H as [<-|H]; [unfold all_schemas; auto 40 using in_eq, in_cons|]).
  contradiction.
Qed.

(* The handlers are finite trees of tests ending in a pair.  [branches H], for
   [H : handler .. = (x, y)] unfolded, walks every path, remembering the outcome of each test,
   and equates the pair at its end with [(x, y)]. *)
Ltac branches H :=
  repeat match type of H with
  | (if ?c then _ else _) = _ => destruct c eqn:?
  | (match ?x with _ => _ end) = _ => destruct x eqn:?
  | (_, _) = (_, _) => injection H as <- <-
  end.

Lemma bytes_eqb_eq : forall a b, bytes_eqb a b = true <-> a = b.
Proof. apply (list_eqb_eq N.eqb); [exact N.eqb_eq|intros [|? ?] [|? ?]; reflexivity]. Qed.

Lemma store_ok_put : forall lim k v s, store_ok lim s = true -> blen v <= lim -> store_ok lim (s_put k v s) = true.
Proof.
  intros lim k v s Hs Hv. unfold s_put, store_ok in *. cbn [forallb].
  apply andb_true_iff. split; [lia|].
  apply forallb_forall. intros [k' v'] Hin. apply filter_In in Hin as [Hin _].
  exact (proj1 (forallb_forall _ _) Hs _ Hin).
Qed.

Lemma store_ok_get : forall lim k s v, store_ok lim s = true -> s_get k s = Some v -> blen v <= lim.
Proof.
  intros lim k s. induction s as [|[k' v'] s IH]; intros v Hs Hg; cbn [s_get] in Hg; [discriminate|].
  unfold store_ok in Hs. cbn [forallb] in Hs. apply andb_true_iff in Hs as [H1 H2].
  destruct (bytes_eqb k' k); [inv Hg; lia|]. apply IH; assumption.
Qed.

(* a cap on the stored values that one step of a handler keeps is kept by every run;
   [run] stands for [dht_run] and for [core_run avail], which satisfy the two equations by computation *)
Lemma run_inv : forall {R} (h : store -> list N -> store * R) (run : store -> list (list N) -> store * list R)
    lim (ok : R -> Prop),
  (forall st f st' r, store_ok lim st = true -> h st f = (st', r) -> store_ok lim st' = true /\ ok r) ->
  (forall st, run st [] = (st, [])) ->
  (forall st f fs, run st (f :: fs) =
     let '(st1, r) := h st f in let '(st2, rs) := run st1 fs in (st2, r :: rs)) ->
  forall frames st, store_ok lim st = true ->
  store_ok lim (fst (run st frames)) = true /\ Forall ok (snd (run st frames)).
Proof.
  intros R h run lim ok h_inv run_nil run_cons.
  induction frames as [|f fs IH]; intros st Hs; [rewrite run_nil; split; [exact Hs|constructor]|].
  rewrite run_cons. destruct (h st f) as [st1 r] eqn:E1. apply h_inv in E1 as [H1 H2]; [|exact Hs].
  specialize (IH st1 H1). destruct (run st1 fs) as [st2 rs]. cbn [fst snd] in *.
  split; [|constructor]; tauto.
Qed.

Definition dres_ok (r : dres) : Prop :=
  match r with DReply _ (Some v) => blen v <= W_CORE_MAX_DHT_VALUE_SIZE | _ => True end.

(* every path returns the store as it was, with a reply that carries no value or one read from
   the store, except the acknowledged PUT, whose value has passed both caps *)
Lemma dht_handle_inv : forall st data st' r,
  store_ok W_CORE_MAX_DHT_VALUE_SIZE st = true -> dht_handle st data = (st', r) ->
  store_ok W_CORE_MAX_DHT_VALUE_SIZE st' = true /\ dres_ok r.
Proof.
  intros st data st' r Hs H. unfold dht_handle, dht_handle_with, dht_request in H.
  branches H; cbn [dres_ok]; split; auto; try (eapply store_ok_get; eassumption).
  apply store_ok_put; [assumption|lia].
Qed.

Definition cres_ok (r : cres) : Prop :=
  match r with
  | CFindNode n => n <= W_CORE_MAX_FIND_NODE_COUNT
  | CRetrieve (Some v) | CFindValue (Some v) _ => blen v <= W_CORE_MAX_DHT_VALUE_SIZE
  | _ => True end.

Lemma core_handle_inv : forall avail st data st' r,
  store_ok W_CORE_MAX_DHT_VALUE_SIZE st = true -> core_handle avail st data = (st', r) ->
  store_ok W_CORE_MAX_DHT_VALUE_SIZE st' = true /\ cres_ok r.
Proof.
  intros avail st data st' r Hs H. unfold core_handle, core_request in H.
  branches H; cbn [cres_ok]; split; auto; try (eapply store_ok_get; eassumption); try lia.
  - apply store_ok_put; [assumption|lia].
  - destruct (s_get _ _) eqn:Eg; [eapply store_ok_get; eassumption|exact I].
Qed.
