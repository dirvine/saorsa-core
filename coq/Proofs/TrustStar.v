(* Why the convergence exit must not be taken before the fourth round (repair F11b).
   [iterate_old] is a faithful copy of the loop as it was before that repair (convergence exit allowed
   from the first round on).  For it the unconditional one-seventh bound of C11 is FALSE: a star-shaped
   network (one anchor, one self-rating identity, thousands of honest nodes without statements) leaves
   the old loop through the convergence test after two rounds with 0.36 of the identity's share.
   Everything over the exact reals.  The repaired loop ([iterate] in Model/Trust.v) satisfies the
   bound for every network: Proofs/Trust.v, [closed_mass]. *)
From Coq Require Import Reals Lra Lia FinFun.
From SV Require Import Lib.Base Lib.GenericField Lib.GenericFieldR Gen.TrustConsts Model.Trust Proofs.Trust.
Local Open Scope R_scope.

(* the loop before repair F11b: identical to [iterate] except that the convergence exit has no
   minimum number of rounds *)
Fixpoint iterate_old (nodes ks pre : list N) (es wes : list (edge RF)) (fuel : nat) (iter : N) (v : vec RF) : vec RF * N :=
  match fuel with
  | O => (v, iter)
  | S k =>
      let '(nv, diff) := @round RF nodes ks pre es wes v in
      if @ltb RF diff (@conv_thr RF) then (nv, iter + 1)%N
      else if (TRUST_CUT1_N <? N.of_nat (length nodes))%N && (TRUST_CUT1_ITER <? iter)%N then (nv, iter + 1)%N
      else if (TRUST_CUT2_N <? N.of_nat (length nodes))%N && (TRUST_CUT2_ITER <? iter)%N then (nv, iter + 1)%N
      else iterate_old nodes ks pre es wes k (iter + 1)%N nv
  end.

Lemma iterate_old_step : forall nodes ks pre es wes k iter (v : vec RF),
  iterate_old nodes ks pre es wes (S k) iter v =
  if exits nodes (@ltb RF (snd (@round RF nodes ks pre es wes v)) (@conv_thr RF)) iter
  then (next nodes ks pre es wes v, (iter + 1)%N)
  else iterate_old nodes ks pre es wes k (iter + 1)%N (next nodes ks pre es wes v).
Proof.
  intros. cbn [iterate_old]. unfold next, exits. destruct (@round RF nodes ks pre es wes v). cbn [fst snd].
  destruct (@ltb RF _ _); [reflexivity|]. destruct (_ && _); [reflexivity|]. destruct (_ && _); reflexivity.
Qed.

(* the OLD loop can leave early: one anchor (2), one identity rating itself (1), honest nodes that
   make no statement *)
Section Star.
Variable honest : list N.
Hypothesis H1 : ~ In 1%N honest.
Hypothesis H2 : ~ In 2%N honest.
Hypothesis HH : NoDup honest.

Definition star_nodes : list N := 1%N :: 2%N :: honest.
Definition star_pre : list N := [2%N].
Definition star_es : list (edge RF) := [@mkEdge RF 1 1 1].

Lemma star_nd : NoDup star_nodes.
Proof.
  unfold star_nodes. constructor; [intros [E|E]; [discriminate|contradiction]|]. constructor; assumption.
Qed.

Lemma star_ok : graph_ok star_nodes star_nodes star_pre star_es.
Proof.
  constructor; try discriminate.
  - exact star_nd.
  - apply incl_refl.
  - repeat constructor. intros [].
  - intros x [<-|[]]. right. now left.
  - intros e [<-|[]]. cbn. lra.
  - intros e [<-|[]]. cbn. split; now left.
Qed.

Definition star_next (v : vec RF) : vec RF := next star_nodes star_nodes star_pre star_es (@wedges RF star_es) v.

(* only the identity makes a statement, so the rest of the mass is dangling *)
Lemma star_dang : forall v, dist star_nodes v -> dang star_nodes star_es v = 1 - V v 1.
Proof.
  intros v [_ Hs]. rewrite (dang_split star_nodes star_es) in Hs.
  rewrite (map_ext _ (fun j => if (1 =? j)%N then V v j else 0)), (Rsum_indicator (V v) _ 1 star_nd) in Hs
    by (intro; unfold has_out; cbn; now rewrite orb_false_r).
  change (memN 1 star_nodes) with true in Hs. lra.
Qed.

Lemma star_inc : forall v i, inc star_es v i = if (1 =? i)%N then V v 1 else 0.
Proof.
  intros v i. unfold inc, star_es. cbn [filter e_to]. destruct (1 =? i)%N; [|reflexivity].
  unfold Rsum, flow. cbn [map fold_right e_val e_from]. change (@outsum RF [@mkEdge RF 1 1 1] 1) with (0 + 1). field.
Qed.

(* the vectors the loop visits: [a] at the identity, the rest at the anchor *)
Definition sv (a : R) (i : N) : R := if (i =? 1)%N then a else if (i =? 2)%N then 1 - a else 0.

Lemma star_step : forall v i, dist star_nodes v -> In i star_nodes -> V (star_next v) i = sv (3 / 5 * V v 1) i.
Proof.
  intros v i Hd Hi. unfold star_next. rewrite (round_V star_ok v i Hd Hi).
  unfold rawf, tele, sv. rewrite star_inc, (star_dang v Hd), alpha_R, (N.eqb_sym 1 i). cbn.
  destruct (N.eqb_spec i 1), (N.eqb_spec i 2); subst; try discriminate; cbn; lra.
Qed.

Definition star_n : R := INR (length star_nodes).
Hypothesis Hbig : 4800 < star_n.

Definition v0 : vec RF := @init_vec RF star_nodes.
Definition v1 : vec RF := star_next v0.
Definition v2 : vec RF := star_next v1.

Lemma v0_dist : dist star_nodes v0.
Proof. exact (init_vec_dist star_ok star_nd). Qed.
Lemma v1_dist : dist star_nodes v1.
Proof. exact (round_dist star_ok v0 v0_dist). Qed.

Lemma v0_V : forall i, In i star_nodes -> V v0 i = 1 / star_n.
Proof. intros i Hi. unfold v0. now rewrite init_vec_V, memN_true. Qed.

Lemma v1_V : forall i, In i star_nodes -> V v1 i = sv (3 / 5 / star_n) i.
Proof. intros i Hi. unfold v1. rewrite (star_step v0 i v0_dist Hi), (v0_V 1%N) by now left. f_equal. unfold Rdiv. ring. Qed.

Lemma v2_V : forall i, In i star_nodes -> V v2 i = sv (9 / 25 / star_n) i.
Proof. intros i Hi. unfold v2. rewrite (star_step v1 i v1_dist Hi), (v1_V 1%N) by now left. f_equal. change (sv (3 / 5 / star_n) 1) with (3 / 5 / star_n). unfold Rdiv. lra. Qed.

Lemma star_n_inv : 0 < / star_n < / 4800.
Proof.
  split; [apply Rinv_0_lt_compat; lra|]. apply Rinv_lt_contravar; [|exact Hbig]. apply Rmult_lt_0_compat; lra.
Qed.

(* the first round moves the anchor from 1/n to nearly 1 *)
Lemma diff1_big : @ltb RF (snd (@round RF star_nodes star_nodes star_pre star_es (@wedges RF star_es) v0)) (@conv_thr RF) = false.
Proof.
  apply not_true_iff_false. rewrite ltb_R. apply Rle_not_lt. rewrite round_diff. fold (star_next v0). fold v1.
  pose proof (Rsum_term_le (fun i => Rabs (V v0 i - V v1 i)) star_nodes (fun y _ => Rabs_pos _) 2%N ltac:(right; now left)) as Hm.
  cbv beta in Hm. rewrite v1_V, v0_V in Hm by (right; now left). change (sv ?a 2) with (1 - a) in Hm.
  pose proof star_n_inv. rewrite conv_thr_R. eapply Rle_trans; [|exact Hm].
  rewrite Rabs_left1; unfold Rdiv in *; lra.
Qed.

(* the second moves 6/25/n from the identity to the anchor: below the threshold when n > 4800 *)
Lemma diff2_small : @ltb RF (snd (@round RF star_nodes star_nodes star_pre star_es (@wedges RF star_es) v1)) (@conv_thr RF) = true.
Proof.
  apply ltb_R. rewrite round_diff. fold (star_next v1). fold v2.
  rewrite (map_ext_in _ (fun i => Rabs (sv (3 / 5 / star_n) i - sv (9 / 25 / star_n) i))) by (intros i Hi; now rewrite v1_V, v2_V).
  unfold star_nodes. cbn [map]. rewrite (map_ext_in _ (fun _ => 0) honest).
  2:{ intros h Hh. unfold sv. destruct (N.eqb_spec h 1), (N.eqb_spec h 2); subst; try contradiction.
      rewrite Rminus_0_r. apply Rabs_R0. }
  change (Rsum (?x :: ?y :: ?l)) with (x + (y + Rsum l)). rewrite Rsum_map_const. cbv [sv N.eqb Pos.eqb].
  pose proof star_n_inv. rewrite conv_thr_R, Rabs_right, Rabs_left1 by (unfold Rdiv; lra). unfold Rdiv. lra.
Qed.

(* the old loop leaves after two rounds *)
Lemma star_loop :
  iterate_old star_nodes star_nodes star_pre star_es (@wedges RF star_es) (N.to_nat TRUST_MAX_ITERATIONS) 0 v0 = (v2, 2%N).
Proof.
  rewrite max_iter_S.
  rewrite iterate_old_step, diff1_big. unfold exits at 1.
  change (TRUST_CUT1_ITER <? 0)%N with false. change (TRUST_CUT2_ITER <? 0)%N with false. rewrite !andb_false_r.
  cbn [orb]. fold (star_next v0). fold v1. now rewrite iterate_old_step, diff2_small.
Qed.

Lemma star_mass : INR (length [1%N]) / star_n / 7 <
  massR [1%N] (fst (iterate_old star_nodes star_nodes star_pre star_es (@wedges RF star_es) (N.to_nat TRUST_MAX_ITERATIONS) 0 v0)).
Proof.
  rewrite star_loop. unfold massR. cbn [fst map length Rsum fold_right]. rewrite v2_V by now left.
  change (sv ?a 1) with a. pose proof star_n_inv. simpl INR. unfold Rdiv. lra.
Qed.

End Star.

(* a concrete instance: 4998 honest nodes *)
Definition star_H : list N := map N.of_nat (seq 3 (N.to_nat 4998)).

Lemma star_H_notin : forall k, (k < 3)%N -> ~ In k star_H.
Proof.
  intros k Hk Hin. apply in_map_iff in Hin as [x [E Hx]]. apply in_seq in Hx. lia.
Qed.

Lemma star_H_nodup : NoDup star_H.
Proof.
  apply Injective_map_NoDup; [|apply seq_NoDup]. intros x y E. lia.
Qed.

Lemma star_H_big : 4800 < star_n star_H.
Proof.
  unfold star_n, star_nodes, star_H. cbn [length]. rewrite map_length, seq_length.
  rewrite !S_INR, INR_IZR_INZ, N_nat_Z. cbn. lra.
Qed.

Lemma star_H_ne : star_H <> [].
Proof. unfold star_H. intro E. apply (f_equal (@length N)) in E. rewrite map_length, seq_length in E. discriminate E. Qed.

(* keeps [cbn] and [lra] from unfolding a list of 4998 elements *)
Global Opaque star_H.

(* the unconditional one-seventh bound for the OLD loop *)
Definition old_loop_seventh_full : Prop :=
  forall (nodes ks pre : list N) (es : list (edge RF)),
  nodes <> [] -> NoDup nodes -> NoDup ks -> incl nodes ks -> NoDup pre -> incl pre ks -> (pre = [] -> ks = nodes) ->
  (forall e, In e es -> 0 < e_val e) ->
  (forall e, In e es -> In (e_from e) ks /\ In (e_to e) ks) ->
  forall Sy : list N,
  NoDup Sy -> incl Sy nodes -> (forall i, In i Sy -> ~ In i pre) -> pre <> [] ->
  (forall e, In e es -> In (e_to e) Sy -> In (e_from e) Sy) ->
  massR Sy (fst (iterate_old nodes ks pre es (@wedges RF es) (N.to_nat TRUST_MAX_ITERATIONS) 0 (@init_vec RF nodes)))
  <= INR (length Sy) / INR (length nodes) / 7.

Lemma old_loop_seventh_refuted : ~ old_loop_seventh_full.
Proof.
  intro Hfull.
  pose proof (star_H_notin 1 ltac:(lia)) as N1. pose proof (star_H_notin 2 ltac:(lia)) as N2.
  destruct (star_ok star_H N1 N2 star_H_nodup).
  apply (Rlt_not_le _ _ (star_mass star_H N1 N2 star_H_nodup star_H_big)), Hfull; try assumption.
  - repeat constructor. intros [].
  - intros x [<-|[]]. now left.
  - intros i [<-|[]] [E|[]]. discriminate.
  - discriminate.
  - intros e [<-|[]] _. now left.
Qed.
