(* C17: the vocabulary in which Props/C17.v says what the sampler selects, ties included.
   The stable sort ranks entry q before entry p iff key q > key p, or the keys are equal
   and q comes earlier in the candidate slice ([befE]: [bef] of Proofs/Placement.v for real
   keys, written out); an entry is selected iff fewer than k entries rank before it. *)
From SV Require Import Lib.Base Model.Placement Proofs.Placement Proofs.PlacementR.

Section Count.
  Context {A : Type}.
  Definition cntG (P : A -> bool) (l : list A) : nat := length (filter P l).
End Count.

Definition ie : Type := (nat * entry)%type.
(* q ranks before p in the sampler's stable descending sort *)
Definition befE (q p : ie) : bool :=
  Rgtb (e_key (snd q)) (e_key (snd p))
  || (negb (Rgtb (e_key (snd p)) (e_key (snd q))) && (fst q <? fst p)%nat).

Lemma befE_bef : befE = bef Rgtb e_key.
Proof. reflexivity. Qed.
