(* C04, Model/Pending.v.  Each table operation is characterised by what [lookup] returns
   afterwards ([lookup_insert], [lookup_remove], [lookup_sweep]; the last needs distinct keys,
   which every step preserves).  At most one completion per request is a budget argument:
   only sending an id makes it [live], and a completion uses the liveness up. *)
From SV Require Import Lib.Base Gen.PendingConsts Model.Pending.
Local Open Scope N_scope.

Definition keys (t : table) : list N := map fst t.

Lemma lookup_remove t id j : lookup (remove t id) j = if id =? j then None else lookup t j.
Proof.
  induction t as [|[k e] t IH]; cbn [remove lookup]; [destruct (id =? j); reflexivity|].
  destruct (N.eqb_spec k id) as [->|]; cbn [lookup]; rewrite IH; [destruct (id =? j); reflexivity|].
  destruct (N.eqb_spec id j), (N.eqb_spec k j); congruence.
Qed.

Lemma lookup_insert t id e j : lookup (insert t id e) j = if id =? j then Some e else lookup t j.
Proof. unfold insert. cbn [lookup]. rewrite lookup_remove. destruct (id =? j); reflexivity. Qed.

Lemma lookup_not_in t j : ~ In j (keys t) -> lookup t j = None.
Proof.
  induction t as [|[k e] t IH]; cbn [keys map fst In lookup]; intro H; [reflexivity|].
  destruct (N.eqb_spec k j); tauto.
Qed.

(* [remove] and [sweep] are both filters, and filtering keeps the keys distinct *)
Lemma remove_filter t id : remove t id = filter (fun kv => negb (fst kv =? id)) t.
Proof.
  induction t as [|[k e] t IH]; cbn [remove filter fst]; [reflexivity|].
  rewrite IH. destruct (k =? id); reflexivity.
Qed.

Lemma keys_filter f (t : table) x : In x (keys (filter f t)) -> In x (keys t).
Proof. exact (incl_map fst (incl_filter f t) x). Qed.

Lemma nodup_filter f (t : table) : NoDup (keys t) -> NoDup (keys (filter f t)).
Proof.
  induction t as [|kv t IH]; cbn [filter keys map]; intro H; [constructor|].
  inversion H as [|? ? Hn Hd]; subst. destruct (f kv); [|apply IH, Hd].
  constructor; [|apply IH, Hd]. intro Hin. apply Hn, (keys_filter f), Hin.
Qed.

Lemma nodup_insert t id e : NoDup (keys t) -> NoDup (keys (insert t id e)).
Proof.
  intro H. unfold insert. rewrite remove_filter. cbn [keys map fst]. constructor.
  - unfold keys. rewrite in_map_iff. intros ([k e'] & E & Hin). apply filter_In in Hin.
    cbn [fst] in *. subst k. rewrite N.eqb_refl in Hin. destruct Hin; discriminate.
  - apply nodup_filter, H.
Qed.

Lemma lookup_sweep now t j : NoDup (keys t) ->
  lookup (sweep now t) j =
  match lookup t j with Some e => if expired now e then None else Some e | None => None end.
Proof.
  unfold sweep. induction t as [|[k e] t IH]; cbn [filter lookup keys map fst snd]; intro H; [reflexivity|].
  inversion H as [|? ? Hn Hd]; subst.
  destruct (N.eqb_spec k j) as [->|Hk], (expired now e) eqn:Ex; cbn [negb lookup].
  - apply lookup_not_in. intro Hin. apply Hn, (keys_filter _ _ _ Hin).
  - rewrite N.eqb_refl. reflexivity.
  - apply IH, Hd.
  - apply N.eqb_neq in Hk. rewrite Hk. apply IH, Hd.
Qed.

Lemma step_nodup t e : NoDup (keys t) -> NoDup (keys (fst (step t e))).
Proof.
  intro H. destruct e as [id peer now to|id from pl|id|id]; cbn [step fst].
  - apply nodup_insert, nodup_filter, H.
  - destruct (lookup t id) as [en|]; [|exact H].
    destruct ((e_peer en =? from) && e_tx en); [apply nodup_insert; exact H|exact H].
  - rewrite remove_filter. apply nodup_filter, H.
  - destruct (lookup t id) as [en|]; [apply nodup_insert; exact H|exact H].
Qed.

Definition send_ids (evs : list ev) : list N :=
  flat_map (fun e => match e with Send id _ _ _ => [id] | _ => [] end) evs.

(* 1 while the entry of [id] still has its oneshot sender, i.e. can still be handed a reply *)
Definition live (t : table) (id : N) : nat :=
  match lookup t id with Some en => if e_tx en then 1 else 0 | None => 0 end.

(* Only sending [id] makes it live, and a completion of [id] uses the liveness up. *)
Lemma step_budget t e id : NoDup (keys t) ->
  (length (completions_of id [snd (step t e)]) + live (fst (step t e)) id
   <= live t id + count_occ N.eq_dec (send_ids [e]) id)%nat.
Proof.
  intro Hn. unfold live.
  destruct e as [i peer now to|i from pl|i|i];
    cbn [step send_ids completions_of flat_map app count_occ].
  - cbn [fst snd app length]. rewrite lookup_insert, lookup_sweep by exact Hn.
    destruct (N.eq_dec i id) as [->|E].
    + rewrite N.eqb_refl. cbn [e_tx]. lia.
    + apply N.eqb_neq in E. rewrite E.
      destruct (lookup t id) as [en|]; [destruct (expired now en), (e_tx en)|]; lia.
  - destruct (lookup t i) as [en|] eqn:L; [|cbn; lia].
    destruct ((e_peer en =? from) && e_tx en) eqn:C; [|cbn; lia].
    apply andb_true_iff in C as [_ T]. cbn [fst snd]. rewrite lookup_insert.
    destruct (e_rx en); cbn [app length]; destruct (N.eqb_spec i id) as [->|E]; rewrite ?L, ?T; cbn; lia.
  - cbn [fst snd app length]. rewrite lookup_remove.
    destruct (i =? id), (lookup t id) as [en|]; [destruct (e_tx en)| |destruct (e_tx en)|]; lia.
  - destruct (lookup t i) as [en|] eqn:L; [|cbn; lia].
    cbn [fst snd app length]. rewrite lookup_insert.
    destruct (N.eqb_spec i id) as [->|E]; [rewrite L|]; cbn; lia.
Qed.

(* Over any run, a request is handed at most as many replies as it is sent (one more if it is
   pending at the start). *)
Theorem completions_le_sends evs : forall t id, NoDup (keys t) ->
  (length (completions_of id (snd (run t evs))) <= live t id + count_occ N.eq_dec (send_ids evs) id)%nat.
Proof.
  induction evs as [|e evs IH]; intros t id Hn; [cbn; lia|].
  pose proof (step_budget t e id Hn) as Hs.
  pose proof (IH (fst (step t e)) id (step_nodup t e Hn)) as Hr.
  cbn [run]. destruct (step t e) as [t1 o]. cbn [fst snd] in *. destruct (run t1 evs) as [t2 os]. cbn [snd] in *.
  unfold completions_of, send_ids in *.
  change (e :: evs) with ([e] ++ evs). change (o :: os) with ([o] ++ os).
  rewrite !flat_map_app, app_length, count_occ_app. lia.
Qed.

Lemma rremove_length t id : (length (rremove t id) <= length t)%nat.
Proof.
  induction t as [|[k p] t IH]; cbn [rremove length]; [lia|].
  destruct (k =? id); cbn [length]; lia.
Qed.

Lemma rstep_cap t e : N.of_nat (length t) <= RR_MAX_ACTIVE_REQUESTS ->
  N.of_nat (length (fst (rstep t e))) <= RR_MAX_ACTIVE_REQUESTS.
Proof.
  intro H. destruct e as [id peer|id from pl|id|id];
    pose proof (rremove_length t id); cbn [rstep].
  - destruct (RR_MAX_ACTIVE_REQUESTS <=? N.of_nat (length t)) eqn:E; cbn [fst length]; lia.
  - destruct (rlookup t id) as [p|]; [destruct (p =? from)|]; cbn [fst]; lia.
  - cbn [fst]. lia.
  - cbn [fst]. lia.
Qed.

Lemma rrun_cap evs : forall t, N.of_nat (length t) <= RR_MAX_ACTIVE_REQUESTS ->
  N.of_nat (length (fst (rrun t evs))) <= RR_MAX_ACTIVE_REQUESTS.
Proof.
  induction evs as [|e evs IH]; intros t H; [exact H|].
  cbn [rrun]. apply (rstep_cap t e), IH in H.
  destruct (rstep t e) as [t1 o]. cbn [fst] in H. destruct (rrun t1 evs). exact H.
Qed.

Lemma rlookup_rremove t id j : rlookup (rremove t id) j = if id =? j then None else rlookup t j.
Proof.
  induction t as [|[k p] t IH]; cbn [rremove rlookup]; [destruct (id =? j); reflexivity|].
  destruct (N.eqb_spec k id) as [->|]; cbn [rlookup]; rewrite IH; [destruct (id =? j); reflexivity|].
  destruct (N.eqb_spec id j), (N.eqb_spec k j); congruence.
Qed.
