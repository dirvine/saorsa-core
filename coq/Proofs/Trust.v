(* Model/Trust.v over the exact reals (Lib/GenericFieldR.v).  A round maps a distribution over the
   keys to a distribution, gives every anchor alpha/|A| and leaves a set nobody vouches for at most
   1 - alpha of its mass (Section RoundR); [iterate] is rounds until an exit test ([iterate_char]);
   the returned map is the normalised product of that vector with the multipliers ([GT_cases]). *)
From Coq Require Import Reals Lra Lia QArith.
From SV Require Import Lib.Base Lib.ListAux Lib.GenericField Lib.GenericFieldR Gen.TrustConsts Model.Trust.
Local Open Scope R_scope.

(* generic *)
Definition Rsum (l : list R) : R := fold_right Rplus 0 l.

Lemma fsum_Rsum : forall l, @fsum RF l = Rsum l.
Proof. intro l. apply fold_symmetric; intros; cbn; ring. Qed.

Lemma Rsum_map_plus : forall {A} (f g : A -> R) l,
  Rsum (map (fun x => f x + g x) l) = Rsum (map f l) + Rsum (map g l).
Proof. induction l as [|x l IH]; simpl; [lra|]. rewrite IH. lra. Qed.

Lemma Rsum_map_scal : forall {A} c (f : A -> R) l,
  Rsum (map (fun x => c * f x) l) = c * Rsum (map f l).
Proof. induction l as [|x l IH]; simpl; [lra|]. rewrite IH. lra. Qed.

Lemma Rsum_map_const : forall {A} (c : R) (l : list A),
  Rsum (map (fun _ => c) l) = INR (length l) * c.
Proof. induction l as [|x l IH]; [simpl; lra|]. simpl length. rewrite S_INR. simpl. rewrite IH. lra. Qed.

Lemma Rsum_map_le : forall {A} (f g : A -> R) l,
  (forall x, In x l -> f x <= g x) -> Rsum (map f l) <= Rsum (map g l).
Proof.
  induction l as [|x l IH]; intro H; simpl; [lra|].
  pose proof (H x (or_introl eq_refl)). pose proof (IH (fun y Hy => H y (or_intror Hy))). lra.
Qed.

Lemma Rsum_nonneg : forall {A} (f : A -> R) l, (forall x, In x l -> 0 <= f x) -> 0 <= Rsum (map f l).
Proof.
  intros A f l H. rewrite <- (Rmult_0_r (INR (length l))), <- Rsum_map_const. now apply Rsum_map_le.
Qed.

Lemma Rsum_term_le : forall {A} (f : A -> R) l, (forall x, In x l -> 0 <= f x) ->
  forall x, In x l -> f x <= Rsum (map f l).
Proof.
  induction l as [|a l IH]; intros H x Hx; simpl; [destruct Hx|].
  pose proof (H a (or_introl eq_refl)). pose proof (Rsum_nonneg f l (fun y Hy => H y (or_intror Hy))).
  destruct Hx as [->|Hx]; [|apply (IH (fun y Hy => H y (or_intror Hy))) in Hx]; lra.
Qed.

Lemma Rsum_filter : forall {A} (p : A -> bool) (f : A -> R) l,
  Rsum (map f (filter p l)) = Rsum (map (fun x => if p x then f x else 0) l).
Proof. induction l as [|x l IH]; simpl; [reflexivity|]. destruct (p x); simpl; rewrite IH; lra. Qed.

Lemma memN_In : forall x l, memN x l = true <-> In x l.
Proof.
  intros x l. unfold memN. rewrite existsb_exists. split.
  - intros [y [Hy E]]. apply N.eqb_eq in E. now subst.
  - intro H. exists x. split; [assumption|apply N.eqb_refl].
Qed.

Lemma memN_true : forall x l, In x l -> memN x l = true.
Proof. apply memN_In. Qed.

Lemma memN_false : forall x l, memN x l = false <-> ~ In x l.
Proof. intros x l. rewrite <- memN_In. destruct (memN x l); split; congruence. Qed.

Lemma Rsum_indicator : forall (g : N -> R) (ks : list N) (k : N), NoDup ks ->
  Rsum (map (fun i => if (k =? i)%N then g i else 0) ks) = if memN k ks then g k else 0.
Proof.
  induction 1 as [|a l Ha _ IH]; simpl; [reflexivity|]. rewrite IH.
  destruct (N.eqb_spec k a) as [->|]; simpl; [|lra]. apply memN_false in Ha. rewrite Ha. lra.
Qed.

Lemma Rsum_update : forall (g g' : N -> R) l x,
  NoDup l -> In x l -> (forall j, j <> x -> g' j = g j) ->
  Rsum (map g' l) = Rsum (map g l) + (g' x - g x).
Proof.
  intros g g' l x Hnd Hin Hg. apply memN_true in Hin.
  replace (g' x - g x) with (if memN x l then g' x - g x else 0) by now rewrite Hin.
  rewrite <- (Rsum_indicator (fun i => g' i - g i) l x Hnd), <- Rsum_map_plus. apply f_equal, map_ext. intro j.
  destruct (N.eqb_spec x j) as [<-|]; [|rewrite Hg by congruence]; lra.
Qed.

Lemma Rsum_group : forall {A} (key : A -> N) (g : A -> R) (ks : list N) (l : list A), NoDup ks ->
  Rsum (map (fun i => Rsum (map g (filter (fun a => (key a =? i)%N) l))) ks) =
  Rsum (map (fun a => if memN (key a) ks then g a else 0) l).
Proof.
  intros A key g ks l Hnd. induction l as [|a l IH]; simpl.
  - rewrite Rsum_map_const. apply Rmult_0_r.
  - rewrite <- IH, <- (Rsum_indicator (fun _ => g a) ks (key a) Hnd), <- Rsum_map_plus.
    apply f_equal, map_ext_in. intros i _. destruct (key a =? i)%N; simpl; lra.
Qed.

Lemma Rsum_sub : forall (f : N -> R) (l s : list N), NoDup l -> NoDup s -> incl s l ->
  Rsum (map (fun i => if memN i s then f i else 0) l) = Rsum (map f s).
Proof.
  (* both are the sum over [i] in [l] and [a] in [s] of [f a] where [a = i] *)
  intros f l s Hl Hs Hin. rewrite <- (map_ext_in (fun a => if memN a l then f a else 0) f s)
    by (intros a Ha; now rewrite (memN_true a l (Hin a Ha))).
  rewrite <- (Rsum_group (fun a => a) f l s Hl). apply f_equal, map_ext. intro i.
  rewrite Rsum_filter, <- (Rsum_indicator f s i Hs). apply f_equal, map_ext. intro a. now rewrite N.eqb_sym.
Qed.

Lemma Rsum_mem_all : forall (l s : list N) (c : R), NoDup l -> NoDup s -> incl s l ->
  Rsum (map (fun i => if memN i s then c else 0) l) = INR (length s) * c.
Proof. intros. rewrite (Rsum_sub (fun _ => c)), Rsum_map_const by assumption. reflexivity. Qed.

Lemma dedupN_In : forall l x, In x (dedupN l) <-> In x l.
Proof.
  induction l as [|a l IH]; intro x; simpl; [tauto|]. rewrite filter_In, IH.
  destruct (N.eqb_spec x a); subst; simpl; intuition congruence.
Qed.

Lemma dedupN_NoDup : forall l, NoDup (dedupN l).
Proof.
  induction l as [|a l IH]; simpl; constructor.
  - rewrite filter_In. rewrite N.eqb_refl. simpl. intros [_ H]. discriminate.
  - now apply NoDup_filter.
Qed.

Lemma dedupN_id : forall l, NoDup l -> dedupN l = l.
Proof.
  induction l as [|a l IH]; intro H; simpl; [reflexivity|]. inversion H; subst.
  rewrite IH by assumption. f_equal. apply filter_all, Forall_forall. intros y Hy. destruct (N.eqb_spec y a); [subst; contradiction|reflexivity].
Qed.

Lemma memN_dedupN : forall x l, memN x (dedupN l) = memN x l.
Proof. intros. apply Bool.eq_iff_eq_true. rewrite !memN_In. apply dedupN_In. Qed.

Lemma dedupN_snoc : forall l x, dedupN (l ++ [x]) = if memN x l then dedupN l else dedupN l ++ [x].
Proof.
  induction l as [|a l IH]; intro x; [reflexivity|]. unfold memN in *. simpl. rewrite IH.
  destruct (existsb (N.eqb x) l); [now rewrite orb_true_r|]. rewrite orb_false_r, filter_app. simpl.
  destruct (x =? a)%N; simpl; [now rewrite app_nil_r|reflexivity].
Qed.

Lemma filter_map_comm : forall {A B} (f : A -> B) (p : B -> bool) l,
  filter p (map f l) = map f (filter (fun x => p (f x)) l).
Proof. induction l as [|a l IH]; simpl; [reflexivity|]. destruct (p (f a)); simpl; rewrite IH; reflexivity. Qed.

Lemma existsb_filter_nil : forall {A} (p : A -> bool) l, existsb p l = false -> filter p l = [].
Proof. induction l as [|a l IH]; simpl; [reflexivity|]. destruct (p a); [discriminate|exact IH]. Qed.

Lemma in_map_keys : forall {A} (g : N -> A) l i x, In (i, x) (map (fun j => (j, g j)) l) -> In i l /\ x = g i.
Proof. intros A g l i x H. apply in_map_iff in H as [j [[= <- <-] Hj]]. now split. Qed.

Lemma in_nonempty : forall {A} (x : A) l, In x l -> l <> [].
Proof. intros A x l H E. subst. destruct H. Qed.

Lemma length_pos_INR : forall {A} (l : list A), l <> [] -> 0 < INR (length l).
Proof. destruct l; [contradiction|]. intros _. apply lt_0_INR. simpl. lia. Qed.

Lemma Rdiv_nonneg : forall a b, 0 <= a -> 0 <= b -> 0 <= a / b.
Proof.
  intros a b Ha Hb. unfold Rdiv. destruct Hb as [Hb| <-]; [|rewrite Rinv_0; lra].
  apply Rinv_0_lt_compat, Rlt_le in Hb. now apply Rmult_le_pos.
Qed.

Lemma Rdiv_unit : forall a b, 0 <= a <= b -> 0 < b -> 0 <= a / b <= 1.
Proof.
  intros a b Ha Hb. split; [apply Rdiv_nonneg; lra|].
  apply (Rmult_le_reg_r b); [assumption|]. unfold Rdiv. rewrite Rmult_assoc, Rinv_l; lra.
Qed.

Lemma Rdiv_le_cross : forall a b c d, 0 < b -> 0 < d -> a * d <= c * b -> a / b <= c / d.
Proof.
  intros a b c d Hb Hd H. apply (Rmult_le_reg_r (b * d)); [apply Rmult_lt_0_compat; assumption|].
  replace (a / b * (b * d)) with (a * d) by (field; lra).
  replace (c / d * (b * d)) with (c * b) by (field; lra). assumption.
Qed.

Lemma pow_antitone : forall x m k, 0 <= x <= 1 -> (m <= k)%nat -> x ^ k <= x ^ m.
Proof.
  intros x m k Hx H. induction H as [|k _ IH]; [lra|]. pose proof (pow_le x k (proj1 Hx)). simpl. nra.
Qed.

Lemma aget_aset : forall {A} (l : list (N * A)) k a i,
  aget (aset l k a) i = if (k =? i)%N then Some a else aget l i.
Proof.
  induction l as [|[k' a'] l IH]; intros k a i; simpl; [reflexivity|].
  destruct (N.eqb_spec k' k); simpl; rewrite ?IH; destruct (N.eqb_spec k i), (N.eqb_spec k' i); congruence.
Qed.

Lemma aget_adel : forall {A} (l : list (N * A)) k i,
  aget (adel l k) i = if (k =? i)%N then None else aget l i.
Proof.
  induction l as [|[k' a'] l IH]; intros k i; simpl; [now destruct (k =? i)%N|].
  destruct (N.eqb_spec k' k); simpl; rewrite IH; destruct (N.eqb_spec k i), (N.eqb_spec k' i); congruence.
Qed.

Lemma aget_None : forall {A} (l : list (N * A)) k, aget l k = None <-> ~ In k (map fst l).
Proof.
  induction l as [|[k' a'] l IH]; intro k; simpl; [tauto|].
  destruct (N.eqb_spec k' k) as [->|Hn]; [split; [discriminate|intro H; exfalso; apply H; now left]|].
  rewrite IH. tauto.
Qed.

Lemma map_fst_aset : forall {A} (l : list (N * A)) k a,
  map fst (aset l k a) = if memN k (map fst l) then map fst l else map fst l ++ [k].
Proof.
  induction l as [|[k' a'] l IH]; intros k a; simpl; [reflexivity|].
  unfold memN. simpl. rewrite (N.eqb_sym k k'). destruct (N.eqb_spec k' k) as [->|Hn]; simpl; [reflexivity|].
  rewrite IH. unfold memN. destruct (existsb (N.eqb k) (map fst l)); reflexivity.
Qed.

Definition V (v : vec RF) (i : N) : R := @vget RF v i.

Lemma V_map_keys : forall (g : N -> R) ks i,
  V (map (fun k => (k, g k)) ks) i = if memN i ks then g i else 0.
Proof.
  intros g ks i. unfold V, vget, memN. induction ks as [|k ks IH]; simpl; [reflexivity|].
  rewrite (N.eqb_sym i k). destruct (N.eqb_spec k i); subst; [reflexivity|exact IH].
Qed.

Lemma ltb_R : forall a b : R, @ltb RF a b = true <-> a < b.
Proof. intros. cbn [ltb RF]. destruct (Rlt_dec a b); intuition discriminate. Qed.

Lemma of_N_R_nat : forall n, @of_N RF (N.of_nat n) = INR n.
Proof. intro n. cbn [of_N RF]. rewrite nat_N_Z. symmetry. apply INR_IZR_INZ. Qed.

Lemma of_N_R_le : forall a b, (a <= b)%N -> @of_N RF a <= @of_N RF b.
Proof. intros. apply IZR_le. lia. Qed.

Lemma of_Q_R_nonneg : forall q, 0 <= @of_Q RF q.
Proof. intro q. apply Rdiv_nonneg; apply (of_N_R_le 0); lia. Qed.

Lemma alpha_R : @alpha RF = 2 / 5.
Proof. reflexivity. Qed.

Lemma conv_thr_R : @conv_thr RF = 1 / 10000.
Proof. reflexivity. Qed.

(* the fuel of the loop: at most 50 rounds *)
Lemma max_iter_S : N.to_nat TRUST_MAX_ITERATIONS = S 49.
Proof. reflexivity. Qed.

Lemma pow_35_50 : (3 / 5) ^ 50 < 1 / 1000.
Proof. simpl. lra. Qed.

(* the share [w i / sum w] of an entry, as [normalise] computes it *)
Definition norm (l : list N) (w : N -> R) (i : N) : R :=
  if Rlt_dec 0 (Rsum (map w l)) then w i / Rsum (map w l) else w i.

Lemma normalise_R : forall (g : N -> R) l,
  @normalise RF (map (fun i => (i, g i)) l) = map (fun i => (i, norm l g i)) l.
Proof.
  intros g l. unfold normalise, norm. replace (map snd _) with (map g l) by now rewrite map_map.
  rewrite fsum_Rsum. cbn [ltb RF zero]. destruct (Rlt_dec 0 (Rsum (map g l))); [rewrite map_map|]; reflexivity.
Qed.

Lemma norm_nonneg : forall (l : list N) (w : N -> R) i, (forall j, 0 <= w j) -> 0 <= norm l w i.
Proof.
  intros l w i Hw. unfold norm. destruct (Rlt_dec 0 (Rsum (map w l))); [apply Rdiv_nonneg; [apply Hw|lra]|apply Hw].
Qed.

(* C10_distribution on one map *)
Definition good_map (m : vec RF) : Prop :=
  (forall i x, In (i, x) m -> 0 <= x <= 1) /\
  (Rsum (map snd m) = 1 \/ forall i x, In (i, x) m -> x = 0).

Lemma norm_good : forall (l : list N) (w : N -> R), (forall j, 0 <= w j) ->
  good_map (map (fun i => (i, norm l w i)) l).
Proof.
  intros l w Hw. pose proof (Rsum_term_le w l (fun y _ => Hw y)) as Hle.
  unfold good_map, norm. rewrite map_map. cbn [snd]. destruct (Rlt_dec 0 (Rsum (map w l))) as [Hp|Hn].
  - split; [intros i x [Hi ->]%in_map_keys; apply Rdiv_unit; auto|left].
    rewrite (map_ext _ (fun i => / Rsum (map w l) * w i)), Rsum_map_scal by (intros; unfold Rdiv; lra). field. lra.
  - assert (Hz : forall i x, In (i, x) (map (fun i => (i, w i)) l) -> x = 0)
      by (intros i x [Hi ->]%in_map_keys; specialize (Hle i Hi); specialize (Hw i); lra).
    split; [intros i x ->%Hz; lra|right; exact Hz].
Qed.

Lemma norm_mono : forall (l : list N) (w w' : N -> R) x,
  NoDup l -> In x l -> (forall j, 0 <= w j) -> (forall j, j <> x -> w' j = w j) -> w x <= w' x ->
  norm l w x <= norm l w' x.
Proof.
  intros l w w' x Hnd Hin Hw Hsame Hle. unfold norm.
  rewrite (Rsum_update w w' l x Hnd Hin Hsame).
  pose proof (Rsum_term_le w l (fun y _ => Hw y) x Hin) as Hmem. pose proof (Hw x) as Hx.
  set (tot := Rsum (map w l)) in *.
  destruct (Rlt_dec 0 tot) as [Hp|Hn]; destruct (Rlt_dec 0 (tot + (w' x - w x))) as [Hp'|Hn']; try lra.
  - apply Rdiv_le_cross; try assumption. nra.
  - replace (w x) with 0 by lra. apply Rdiv_nonneg; lra.
Qed.

Lemma norm_scale : forall (l : list N) (w : N -> R) d i, (forall j, 0 <= w j) -> 0 < d -> In i l ->
  norm l (fun j => w j * d) i = norm l w i.
Proof.
  intros l w d i Hw Hd Hi. unfold norm.
  rewrite (map_ext_in (fun j => w j * d) (fun j => d * w j)), Rsum_map_scal by (intros; lra).
  pose proof (Rsum_term_le w l (fun y _ => Hw y) i Hi). specialize (Hw i).
  destruct (Rlt_dec 0 (Rsum (map w l))); destruct (Rlt_dec 0 (d * Rsum (map w l))); try nra.
  field. lra.
Qed.

Section Loop.
Variables nodes ks pre : list N.
Variables es wes : list (edge RF).

Definition next (v : vec RF) : vec RF := fst (round nodes ks pre es wes v).

Fixpoint rounds (k : nat) (v : vec RF) : vec RF :=
  match k with O => v | S k => next (rounds k v) end.

(* the exit tests of the round that starts with [iter] rounds done, so of round [iter + 1]: [conv] for
   the convergence exit, then the two cut-offs for large networks ([CUT < iter]: taken in round
   [CUT + 2] at the earliest) *)
Definition exits (conv : bool) (iter : N) : bool :=
  conv || (TRUST_CUT1_N <? N.of_nat (length nodes))%N && (TRUST_CUT1_ITER <? iter)%N
  || (TRUST_CUT2_N <? N.of_nat (length nodes))%N && (TRUST_CUT2_ITER <? iter)%N.

Definition exitb (iter : N) (diff : R) : bool :=
  exits (@ltb RF diff (@conv_thr RF) && (TRUST_MIN_ITERATIONS <=? iter + TRUST_MIN_ITER_OFFSET)%N) iter.

Lemma exitb_true : forall iter diff, exitb iter diff = true ->
  (diff < @conv_thr RF /\ (TRUST_MIN_ITERATIONS <= iter + TRUST_MIN_ITER_OFFSET)%N)
  \/ (TRUST_CUT1_N < N.of_nat (length nodes) /\ TRUST_CUT1_ITER < iter)%N
  \/ (TRUST_CUT2_N < N.of_nat (length nodes) /\ TRUST_CUT2_ITER < iter)%N.
Proof.
  intros iter diff. unfold exitb, exits.
  rewrite !orb_true_iff, !andb_true_iff, ltb_R, N.leb_le, !N.ltb_lt. tauto.
Qed.

Lemma iterate_S : forall fuel iter v,
  iterate nodes ks pre es wes (S fuel) iter v =
  if exitb iter (snd (round nodes ks pre es wes v)) then (next v, (iter + 1)%N)
  else iterate nodes ks pre es wes fuel (iter + 1) (next v).
Proof.
  intros. cbn [iterate]. unfold next, exitb, exits. destruct (round nodes ks pre es wes v) as [nv diff]. cbn [fst snd].
  destruct (_ && _); [reflexivity|]. destruct (_ && _); reflexivity.
Qed.

Lemma rounds_next : forall k v, rounds (S k) v = rounds k (next v).
Proof. induction k as [|k IH]; intro v; [reflexivity|]. cbn [rounds] in *. now rewrite IH. Qed.

Lemma iterate_char : forall fuel iter v, exists j,
  iterate nodes ks pre es wes (S fuel) iter v = (rounds (S j) v, (iter + N.of_nat (S j))%N) /\
  (j = fuel \/ exitb (iter + N.of_nat j) (snd (round nodes ks pre es wes (rounds j v))) = true).
Proof.
  induction fuel as [|f IH]; intros iter v; rewrite iterate_S;
    destruct (exitb iter (snd (round nodes ks pre es wes v))) eqn:E.
  1, 2: exists O; split; [reflexivity|now left].
  - exists O. split; [reflexivity|right]. now rewrite N.add_0_r.
  - destruct (IH (iter + 1)%N (next v)) as (j & Ej & Hj). exists (S j). rewrite Ej, <- !rounds_next. split; [f_equal; lia|].
    destruct Hj as [->|Hj]; [now left|right]. rewrite <- rounds_next in Hj.
    now replace (iter + N.of_nat (S j))%N with (iter + 1 + N.of_nat j)%N by lia.
Qed.

End Loop.

Section Mass.
Variable Sy : list N.

Definition massR (v : vec RF) : R := Rsum (map (V v) Sy).

Lemma mass_R : forall v, @mass RF v Sy = massR v.
Proof. intro v. apply fsum_Rsum. Qed.

End Mass.

(* what a round assumes of the graph: node set, keys of the vector, anchors, positive edges
   (the projections read the graph off their argument) *)
Record graph_ok {nodes ks pre : list N} {es : list (edge RF)} : Prop := {
  g_n0 : nodes <> [];
  g_ks : NoDup ks;
  g_nk : incl nodes ks;
  g_pre : NoDup pre;
  g_pk : incl pre ks;
  g_nopre : pre = [] -> ks = nodes;
  g_pos : forall e, In e es -> 0 < e_val e;
  g_ends : forall e, In e es -> In (e_from e) ks /\ In (e_to e) ks }.
Arguments graph_ok : clear implicits.

Section RoundR.
Variables nodes ks pre : list N.
Variable es : list (edge RF).
Hypothesis Hg : graph_ok nodes ks pre es.
Notation roundR := (round nodes ks pre es (wedges es)).
Notation nextR := (next nodes ks pre es (wedges es)).

Definition dist (v : vec RF) : Prop := (forall i, 0 <= V v i) /\ Rsum (map (V v) ks) = 1.

Lemma outsum_R : forall j, outsum es j = Rsum (map e_val (filter (fun e => (e_from e =? j)%N) es)).
Proof. intro j. apply fsum_Rsum. Qed.

Lemma outsum_pos : forall e, In e es -> 0 < outsum es (e_from e).
Proof.
  intros e He. eapply Rlt_le_trans; [exact (g_pos Hg e He)|]. rewrite outsum_R.
  apply (Rsum_term_le (@e_val RF)); [|apply filter_In; split; [assumption|apply N.eqb_refl]].
  intros y Hy. apply filter_In in Hy. apply Rlt_le, (g_pos Hg), Hy.
Qed.

(* the mass an edge carries: its row-normalised weight times the mass of its source *)
Definition flow (v : vec RF) (e : edge RF) : R := e_val e / outsum es (e_from e) * V v (e_from e).

Definition inc (v : vec RF) (i : N) : R := Rsum (map (flow v) (filter (fun e => (e_to e =? i)%N) es)).

Lemma incoming_R : forall v i, incoming (wedges es) v i = inc v i.
Proof. intros. unfold incoming, wedges. rewrite fsum_Rsum, filter_map_comm, map_map. reflexivity. Qed.

Lemma flow_nonneg : forall v e, (forall j, 0 <= V v j) -> In e es -> 0 <= flow v e.
Proof.
  intros v e Hv He. apply Rmult_le_pos; [|apply Hv].
  apply Rlt_le, Rdiv_lt_0_compat; [exact (g_pos Hg e He)|exact (outsum_pos e He)].
Qed.

Lemma out_flow : forall v j,
  Rsum (map (flow v) (filter (fun e => (e_from e =? j)%N) es)) = if has_out es j then V v j else 0.
Proof.
  intros v j. unfold has_out. destruct (existsb _ es) eqn:E.
  - apply existsb_exists in E as [e0 [He0 Ej]]. apply N.eqb_eq in Ej. pose proof (outsum_pos e0 He0) as Hp. rewrite Ej in Hp.
    rewrite (map_ext_in _ (fun e : edge RF => V v j / outsum es j * e_val e)).
    + rewrite Rsum_map_scal, <- outsum_R. field. lra.
    + intros e He. apply filter_In in He as [_ Ee]. apply N.eqb_eq in Ee. unfold flow. rewrite Ee. unfold Rdiv. ring.
  - now rewrite (existsb_filter_nil _ _ E).
Qed.

(* what a set of keys receives, and what the statement makers among it send, as sums over the edges *)
Lemma inc_by_target : forall v S, NoDup S ->
  Rsum (map (inc v) S) = Rsum (map (fun e => if memN (e_to e) S then flow v e else 0) es).
Proof. intros v S HS. exact (Rsum_group (@e_to RF) (flow v) S es HS). Qed.

Lemma out_by_source : forall v S, NoDup S ->
  Rsum (map (fun j => if has_out es j then V v j else 0) S)
  = Rsum (map (fun e => if memN (e_from e) S then flow v e else 0) es).
Proof.
  intros v S HS. rewrite <- (Rsum_group (@e_from RF) (flow v) S es HS).
  apply f_equal, map_ext_in. intros j _. symmetry. apply out_flow.
Qed.

Definition dang (v : vec RF) : R := Rsum (map (V v) (filter (fun k => negb (has_out es k)) ks)).

Lemma dangling_R : forall v, dangling ks es v = dang v.
Proof. intro v. apply fsum_Rsum. Qed.

Lemma dang_split : forall v,
  Rsum (map (V v) ks) = Rsum (map (fun j => if has_out es j then V v j else 0) ks) + dang v.
Proof.
  intro v. unfold dang. rewrite Rsum_filter, <- Rsum_map_plus. apply f_equal, map_ext_in. intros j _.
  destruct (has_out es j); simpl; lra.
Qed.

Lemma inc_total : forall v, Rsum (map (inc v) ks) = Rsum (map (V v) ks) - dang v.
Proof.
  intro v. rewrite dang_split, (inc_by_target v ks (g_ks Hg)), (out_by_source v ks (g_ks Hg)).
  rewrite (map_ext_in _ (fun e : edge RF => if memN (e_from e) ks then flow v e else 0)); [lra|].
  intros e He. destruct (g_ends Hg e He) as [Hf Ht]. now rewrite !memN_true.
Qed.

(* the teleport distribution: uniform over the anchors, or over the nodes when there is no anchor *)
Definition tele (i : N) : R :=
  match pre with
  | [] => 1 / INR (length nodes)
  | _ => if memN i pre then 1 / INR (length pre) else 0
  end.

Lemma tele_anch : forall i, pre <> [] -> tele i = if memN i pre then 1 / INR (length pre) else 0.
Proof. intros i H. unfold tele. destruct pre; [contradiction|reflexivity]. Qed.

Lemma tele_nonneg : forall i, 0 <= tele i.
Proof.
  intro i. unfold tele. destruct pre; [|destruct (memN i _); [|lra]]; apply Rdiv_nonneg; try lra; apply pos_INR.
Qed.

Lemma tele_sum : Rsum (map tele ks) = 1.
Proof.
  destruct (list_eq_dec N.eq_dec pre []) as [E|E].
  - unfold tele. rewrite E, Rsum_map_const, (g_nopre Hg E).
    pose proof (length_pos_INR nodes (g_n0 Hg)). field. lra.
  - rewrite (map_ext_in _ _ ks (fun i _ => tele_anch i E)), Rsum_mem_all by apply Hg.
    pose proof (length_pos_INR pre E). field. lra.
Qed.

(* the un-normalised next vector as an explicit function *)
Definition rawf (v : vec RF) (i : N) : R :=
  (1 - @alpha RF) * inc v i + (@alpha RF + (1 - @alpha RF) * dang v) * tele i.

Lemma raw_round_R : forall v,
  raw_round nodes ks pre es (wedges es) v = map (fun i => (i, rawf v i)) ks.
Proof.
  intro v. unfold raw_round, rawf, tele, teleport_mass, nF, pre_val. rewrite dangling_R.
  destruct pre; apply map_ext; intro i; f_equal; rewrite incoming_R, of_N_R_nat; cbn [add mul sub div one RF T];
    [|destruct (memN i _)]; unfold Rdiv; ring.
Qed.

Lemma rawf_total : forall v, dist v -> Rsum (map (rawf v) ks) = 1.
Proof.
  intros v [_ Hs]. unfold rawf. rewrite Rsum_map_plus, !Rsum_map_scal, tele_sum, inc_total, Hs. ring.
Qed.

Lemma rawf_ge : forall v i, dist v -> @alpha RF * tele i <= rawf v i.
Proof.
  intros v i [Hv _]. pose proof (tele_nonneg i).
  assert (0 <= inc v i) by (apply Rsum_nonneg; intros e He; apply filter_In in He; now apply flow_nonneg).
  assert (0 <= dang v) by (apply Rsum_nonneg; intros; apply Hv).
  unfold rawf. rewrite alpha_R. nra.
Qed.

Lemma round_fst : forall v, dist v -> nextR v = map (fun i => (i, rawf v i)) ks.
Proof.
  intros v Hd. unfold next, round. cbn [fst]. rewrite raw_round_R, normalise_R. apply map_ext. intro i.
  unfold norm. rewrite (rawf_total v Hd). destruct (Rlt_dec 0 1); [|lra]. f_equal. field.
Qed.

Lemma round_V : forall v i, dist v -> In i ks -> V (nextR v) i = rawf v i.
Proof. intros v i Hd Hi. now rewrite (round_fst v Hd), V_map_keys, memN_true. Qed.

Lemma round_dist : forall v, dist v -> dist (nextR v).
Proof.
  intros v Hd. split.
  - intro i. rewrite (round_fst v Hd), V_map_keys. pose proof (rawf_ge v i Hd). pose proof (tele_nonneg i).
    rewrite alpha_R in *. destruct (memN i ks); lra.
  - rewrite <- (rawf_total v Hd). apply f_equal, map_ext_in. intros i Hi. now apply round_V.
Qed.

Lemma rounds_dist : forall k v, dist v -> dist (rounds nodes ks pre es (wedges es) k v).
Proof. induction k as [|k IH]; intros v Hd; [exact Hd|]. apply round_dist, IH, Hd. Qed.

Lemma round_diff : forall v, snd (roundR v) = Rsum (map (fun i => Rabs (V v i - V (nextR v) i)) nodes).
Proof. intro v. apply fsum_Rsum. Qed.

Lemma round_anchor_floor : forall v a, dist v -> In a pre ->
  @alpha RF / INR (length pre) <= V (nextR v) a.
Proof.
  intros v a Hd Ha. rewrite (round_V v a Hd (g_pk Hg a Ha)).
  eapply Rle_trans; [|exact (rawf_ge v a Hd)]. rewrite (tele_anch a (in_nonempty a pre Ha)), (memN_true a pre Ha).
  apply Req_le. unfold Rdiv. ring.
Qed.

Hypothesis Hnodes : NoDup nodes.

Lemma init_vec_V : forall i, V (@init_vec RF nodes) i = if memN i nodes then 1 / INR (length nodes) else 0.
Proof. intro i. unfold init_vec, nF. rewrite V_map_keys, of_N_R_nat. reflexivity. Qed.

Lemma init_vec_dist : dist (@init_vec RF nodes).
Proof.
  pose proof (length_pos_INR nodes (g_n0 Hg)) as Hn. split.
  - intro i. rewrite init_vec_V. destruct (memN i nodes); [apply Rdiv_nonneg|]; lra.
  - rewrite (map_ext_in _ _ ks (fun i _ => init_vec_V i)), Rsum_mem_all by (assumption || apply Hg). field. lra.
Qed.

Section ClosedRound.
Variable Sy : list N.
Hypothesis HSnd : NoDup Sy.
Hypothesis HSn : incl Sy nodes.
Hypothesis HSpre : forall i, In i Sy -> ~ In i pre.
Hypothesis Hanch : pre <> [].
(* nobody outside the set makes a (positive) statement about a member *)
Hypothesis Hclosed : forall e, In e es -> In (e_to e) Sy -> In (e_from e) Sy.

Lemma round_mass_decay : forall v, dist v -> massR Sy (nextR v) <= (1 - @alpha RF) * massR Sy v.
Proof.
  intros v Hd. pose proof Hd as [Hv _]. unfold massR.
  rewrite (map_ext_in _ (fun i => (1 - @alpha RF) * inc v i)).
  2:{ intros i Hi. rewrite (round_V v i Hd (g_nk Hg i (HSn i Hi))).
      unfold rawf. rewrite (tele_anch i Hanch), (proj2 (memN_false i pre) (HSpre i Hi)). ring. }
  rewrite Rsum_map_scal. apply Rmult_le_compat_l; [rewrite alpha_R; lra|].
  (* what the set receives comes along edges that start in it, and those carry at most its mass *)
  rewrite (inc_by_target v Sy HSnd). apply Rle_trans with (Rsum (map (fun j => if has_out es j then V v j else 0) Sy)).
  - rewrite (out_by_source v Sy HSnd). apply Rsum_map_le. intros e He. pose proof (flow_nonneg v e Hv He).
    destruct (memN (e_to e) Sy) eqn:Et; [|destruct (memN (e_from e) Sy); lra].
    apply memN_In, (Hclosed e He), memN_In in Et. rewrite Et. lra.
  - apply Rsum_map_le. intros j _. specialize (Hv j). destruct (has_out es j); lra.
Qed.

Lemma rounds_mass : forall k v, dist v ->
  massR Sy (rounds nodes ks pre es (wedges es) k v) <= (3 / 5) ^ k * massR Sy v.
Proof.
  induction k as [|k IH]; intros v Hd; cbn [rounds pow]; [lra|].
  pose proof (round_mass_decay _ (rounds_dist k v Hd)) as H. rewrite alpha_R in H. specialize (IH v Hd). lra.
Qed.

(* a round that moves the vector by less than the threshold leaves the set next to nothing:
   the L1 change is at least the mass the set lost, and it lost two fifths *)
Lemma conv_mass : forall v, dist v -> snd (roundR v) < @conv_thr RF ->
  massR Sy (nextR v) < 3 / 2 * @conv_thr RF.
Proof.
  intros v Hd Hc. pose proof (round_mass_decay v Hd) as Hm. rewrite alpha_R in Hm.
  rewrite round_diff in Hc. set (nv := nextR v) in *.
  assert (Rsum (map (fun i => Rabs (V v i - V nv i)) Sy) <= Rsum (map (fun i => Rabs (V v i - V nv i)) nodes)).
  { rewrite <- (Rsum_sub _ nodes Sy Hnodes HSnd HSn). apply Rsum_map_le. intros i _.
    pose proof (Rabs_pos (V v i - V nv i)). destruct (memN i Sy); lra. }
  assert (massR Sy v <= Rsum (map (fun i => V nv i + Rabs (V v i - V nv i)) Sy)).
  { apply Rsum_map_le. intros i _. pose proof (Rle_abs (V v i - V nv i)). lra. }
  rewrite Rsum_map_plus in *. fold (massR Sy nv) in *. lra.
Qed.

Lemma init_mass : massR Sy (@init_vec RF nodes) = INR (length Sy) / INR (length nodes).
Proof.
  unfold massR. rewrite (map_ext_in _ (fun _ => 1 / INR (length nodes))), Rsum_map_const.
  - unfold Rdiv. ring.
  - intros i Hi. now rewrite init_vec_V, (memN_true i nodes (HSn i Hi)).
Qed.

End ClosedRound.
End RoundR.
(* outside the section the graph is read off [Hg] *)
Arguments round_fst {nodes ks pre es}.
Arguments round_V {nodes ks pre es}.
Arguments round_dist {nodes ks pre es}.
Arguments rounds_dist {nodes ks pre es}.
Arguments round_anchor_floor {nodes ks pre es}.
Arguments init_vec_dist {nodes ks pre es}.
Arguments round_mass_decay {nodes ks pre es}.
Arguments rounds_mass {nodes ks pre es}.
Arguments conv_mass {nodes ks pre es}.

Definition wf (st : state RF) : Prop := NoDup (st_pre st).

Definition tv (st : state RF) : vec RF := fst (power st).

Section StateFacts.
Variable st : state RF.
Hypothesis Hwf : wf st.
Hypothesis Hne : node_set st <> [].

Notation nodes := (node_set st).
Notation ks := (keys st).
Notation pre := (st_pre st).
Notation es := (pos_edges (st_local st)).

Lemma state_graph : graph_ok nodes ks pre es.
Proof.
  constructor; try assumption.
  - apply NoDup_app_iff. split; [apply dedupN_NoDup|]. split; [now apply NoDup_filter|].
    intros x Hx Hx'. apply filter_In in Hx' as [_ E]. apply negb_true_iff, memN_false in E. contradiction.
  - apply incl_appl, incl_refl.
  - intros a Ha. apply in_or_app. destruct (memN a nodes) eqn:E; [left; now apply memN_In|right].
    apply filter_In. now rewrite E.
  - intro H. unfold keys, extra_anchors. rewrite H. apply app_nil_r.
  - intros e He. apply filter_In in He. now apply ltb_R.
  - intros e He. apply filter_In in He as [He _].
    enough (forall x, In x [e_from e; e_to e] -> In x ks) by (simpl in *; auto).
    intros x Hx. apply in_or_app. left. apply dedupN_In, in_or_app. left. apply in_flat_map. now exists e.
Qed.

Lemma power_char : exists j,
  let v := rounds nodes ks pre es (wedges es) j (@init_vec RF nodes) in
  tv st = next nodes ks pre es (wedges es) v /\ rounds_run st = N.of_nat (S j) /\
  (S j = N.to_nat TRUST_MAX_ITERATIONS \/
   exitb nodes (N.of_nat j) (snd (round nodes ks pre es (wedges es) v)) = true).
Proof.
  destruct (iterate_char nodes ks pre es (wedges es) 49 0 (@init_vec RF nodes)) as (j & E & Hx).
  rewrite <- max_iter_S in E. exists j. split; [exact (f_equal fst E)|]. split; [exact (f_equal snd E)|].
  destruct Hx as [->|Hx]; [left; symmetry; exact max_iter_S|now right].
Qed.

Lemma loop_dist : forall j, dist ks (rounds nodes ks pre es (wedges es) j (@init_vec RF nodes)).
Proof. intro j. apply (rounds_dist state_graph), (init_vec_dist state_graph), dedupN_NoDup. Qed.

Lemma tv_dist : dist ks (tv st).
Proof. destruct power_char as (j & -> & _). exact (round_dist state_graph _ (loop_dist j)). Qed.

Lemma tv_floor : forall a, In a pre -> @alpha RF / INR (length pre) <= V (tv st) a.
Proof.
  destruct power_char as (j & -> & _). intro a. exact (round_anchor_floor state_graph _ a (loop_dist j)).
Qed.

Lemma tv_canon : tv st = map (fun i => (i, V (tv st) i)) ks.
Proof.
  destruct power_char as (j & -> & _). rewrite (round_fst state_graph _ (loop_dist j)).
  apply map_ext_in. intros i Hi. now rewrite V_map_keys, memN_true.
Qed.

End StateFacts.

Lemma default_rate_R : @of_Q RF TRUST_MF_DEFAULT_RATE = 1 / 2.
Proof. reflexivity. Qed.

Lemma rr_nonneg : forall s, 0 <= @response_rate RF s.
Proof.
  intro s. unfold response_rate. destruct (0 <? _)%N; [|rewrite default_rate_R; lra].
  apply Rdiv_nonneg; apply (of_N_R_le 0); lia.
Qed.

Lemma rr_mono : forall s s', (s_ok s <= s_ok s')%N -> (s_fail s' <= s_fail s)%N ->
  @response_rate RF s <= @response_rate RF s'.
Proof.
  intros s s' Hok Hfail. unfold response_rate. rewrite default_rate_R. cbn [div of_N RF].
  destruct (N.ltb_spec 0 (s_ok s + s_fail s)), (N.ltb_spec 0 (s_ok s' + s_fail s')).
  - apply Rdiv_le_cross; try (apply IZR_lt; lia). rewrite <- !mult_IZR. apply IZR_le. nia.
  - replace (s_ok s) with 0%N by lia. unfold Rdiv. rewrite Rmult_0_l. lra.
  - replace (s_ok s' + s_fail s')%N with (s_ok s') by lia. unfold Rdiv. rewrite Rinv_r; [lra|apply not_0_IZR; lia].
  - lra.
Qed.

Section Factor.
Variable ln1p : N -> R.
Hypothesis Hln : forall x, 0 <= ln1p x.

Lemma factor_nonneg : forall s, 0 <= @factor RF ln1p s.
Proof.
  (* a sum of products of non-negative numbers *)
  intro s. unfold factor, fmin. cbn [add mul div RF T]. destruct (@ltb RF _ _);
    repeat apply Rplus_le_le_0_compat; apply Rmult_le_pos; try apply Rdiv_nonneg;
    apply of_Q_R_nonneg || apply Hln || apply rr_nonneg || (apply (of_N_R_le 0); lia).
Qed.

Lemma factor_mono : forall s s',
  s_up s' = s_up s -> s_sto s' = s_sto s -> s_bw s' = s_bw s -> s_cpu s' = s_cpu s ->
  (s_ok s <= s_ok s')%N -> (s_fail s' <= s_fail s)%N ->
  @factor RF ln1p s <= @factor RF ln1p s'.
Proof.
  intros s s' E1 E2 E3 E4 Hok Hfail. unfold factor. rewrite E1, E2, E3, E4. cbn [add mul RF T].
  repeat apply Rplus_le_compat_r. apply Rmult_le_compat_l; [apply of_Q_R_nonneg|now apply rr_mono].
Qed.

End Factor.

Section Ops.
Variable ln1p : N -> R.
Hypothesis Hln : forall x, 0 <= ln1p x.

Notation stepR := (@step RF ln1p).
Notation runR := (@run RF ln1p).
Notation GT := (@global_trust RF ln1p).

(* the returned map: shares of the weights [eigenvector entry * multiplier * decay] *)
Definition weight (st : state RF) (i : N) : R := V (tv st) i * @factor RF ln1p (stats_of st i).

Definition score (st : state RF) (d : R) (i : N) : R := norm (keys st) (fun j => weight st j * d) i.

Lemma weight_nonneg : forall st d i, wf st -> node_set st <> [] -> 0 <= d -> 0 <= weight st i * d.
Proof.
  intros st d i Hwf Hne Hd. apply Rmult_le_pos; [apply Rmult_le_pos|assumption].
  - apply (tv_dist st Hwf Hne).
  - now apply factor_nonneg.
Qed.

Lemma GT_cases : forall st, wf st ->
  (node_set st = [] /\ forall d, GT st d = []) \/
  (node_set st <> [] /\ forall d, GT st d = map (fun i => (i, score st d i)) (keys st)).
Proof.
  intros st Hwf. destruct (list_eq_dec N.eq_dec (node_set st) []) as [E|Hne]; [left|right]; split; try assumption; intro d; unfold global_trust.
  - now rewrite E.
  - destruct (node_set st) eqn:E; [contradiction|]. rewrite <- E in Hne.
    unfold finalise. fold (tv st). rewrite (tv_canon st Hwf Hne), map_map.
    exact (normalise_R (fun j => weight st j * d) _).
Qed.

Lemma GT_V : forall st d i, wf st -> node_set st <> [] -> In i (keys st) -> V (GT st d) i = score st d i.
Proof.
  intros st d i Hwf Hne Hi. destruct (GT_cases st Hwf) as [[E _]|[_ E]]; [contradiction|].
  now rewrite E, V_map_keys, memN_true.
Qed.

Lemma GT_good : forall st d, wf st -> 0 <= d -> good_map (GT st d).
Proof.
  intros st d Hwf Hd. destruct (GT_cases st Hwf) as [[_ E]|[Hne E]]; rewrite E.
  - split; [intros i x []|right; intros i x []].
  - apply norm_good. intro. now apply weight_nonneg.
Qed.

Lemma GT_range : forall st d i, wf st -> 0 <= d ->
  0 <= V (GT st d) i /\ (~ In i (keys st) -> V (GT st d) i = 0).
Proof.
  intros st d i Hwf Hd. destruct (GT_cases st Hwf) as [[_ E]|[Hne E]]; rewrite E; [split; [apply Rle_refl|reflexivity]|].
  rewrite V_map_keys. destruct (memN i (keys st)) eqn:M; [apply memN_In in M|split; [lra|reflexivity]].
  split; [|contradiction]. apply norm_nonneg. intro. now apply weight_nonneg.
Qed.

Lemma GT_decay : forall st d1 d2, wf st -> 0 < d1 -> 0 < d2 -> GT st d1 = GT st d2.
Proof.
  intros st d1 d2 Hwf H1 H2. destruct (GT_cases st Hwf) as [[_ E]|[Hne E]]; rewrite !E; [reflexivity|].
  apply map_ext_in. intros i Hi. f_equal. unfold score.
  pose proof (fun j => weight_nonneg st 1 j Hwf Hne Rle_0_1) as Hw. setoid_rewrite Rmult_1_r in Hw.
  now rewrite !norm_scale.
Qed.

Lemma GT_mono : forall st st' d x, wf st -> 0 <= d -> In x (node_set st) ->
  st_local st' = st_local st -> st_pre st' = st_pre st -> node_set st' = node_set st ->
  (forall j, j <> x -> stats_of st' j = stats_of st j) ->
  @factor RF ln1p (stats_of st x) <= @factor RF ln1p (stats_of st' x) ->
  V (GT st d) x <= V (GT st' d) x.
Proof.
  intros st st' d x Hwf Hd Hx El Ep En Hs Hf. pose proof (in_nonempty _ _ Hx) as Hne.
  assert (Ek : keys st' = keys st) by (unfold keys, extra_anchors; now rewrite Ep, En).
  assert (Et : tv st' = tv st) by (unfold tv, power, keys, extra_anchors; now rewrite El, Ep, En).
  pose proof (state_graph st Hwf Hne) as Hg. pose proof (g_nk Hg x Hx) as Hk.
  rewrite !GT_V by (unfold wf; rewrite ?Ek, ?Ep, ?En; assumption).
  unfold score. rewrite Ek. apply norm_mono; [exact (g_ks Hg)|exact Hk|intro; now apply weight_nonneg| |]; unfold weight; rewrite Et.
  - intros j Hj. now rewrite (Hs j Hj).
  - apply Rmult_le_compat_r, Rmult_le_compat_l; [assumption|apply (tv_dist st Hwf Hne)|assumption].
Qed.

Definition with_stats (st : state RF) (i : N) (u : supd) : state RF := fst (stepR st (UpdStats i u)).

Definition is_failure (u : supd) : Prop := u = UFailed \/ u = UUnavailable \/ u = UCorrupted \/ u = UProtocol.

Lemma with_stats_local : forall st i u, st_local (with_stats st i u) = st_local st. Proof. reflexivity. Qed.
Lemma with_stats_pre : forall st i u, st_pre (with_stats st i u) = st_pre st. Proof. reflexivity. Qed.
Lemma with_stats_cache : forall st i u, st_cache (with_stats st i u) = st_cache st. Proof. reflexivity. Qed.

Lemma with_stats_of : forall st i u j,
  stats_of (with_stats st i u) j = if (i =? j)%N then apply_upd (stats_of st i) u else stats_of st j.
Proof.
  intros. unfold with_stats, stats_of at 1. cbn [step fst st_stats]. rewrite aget_aset.
  destruct (i =? j)%N; reflexivity.
Qed.

Lemma with_stats_same : forall st i u, stats_of (with_stats st i u) i = apply_upd (stats_of st i) u.
Proof. intros. now rewrite with_stats_of, N.eqb_refl. Qed.

Lemma with_stats_other : forall st i u j, j <> i -> stats_of (with_stats st i u) j = stats_of st j.
Proof. intros st i u j H. rewrite with_stats_of. destruct (N.eqb_spec i j); congruence. Qed.

Lemma with_stats_nodes : forall st i u, node_set (with_stats st i u) =
  if memN i (node_set st) then node_set st else node_set st ++ [i].
Proof.
  intros. unfold node_set, with_stats. cbn [step fst st_stats st_local]. rewrite map_fst_aset.
  rewrite memN_dedupN. destruct (memN i (map fst (st_stats st))) eqn:M.
  - unfold memN in *. now rewrite existsb_app, M, orb_true_r.
  - now rewrite app_assoc, dedupN_snoc.
Qed.

Lemma with_stats_In : forall st i u, In i (node_set (with_stats st i u)).
Proof.
  intros. rewrite with_stats_nodes. destruct (memN i _) eqn:E; [now apply memN_In|]. apply in_or_app. right. now left.
Qed.

Lemma with_stats_node_set : forall st i u, In i (node_set st) -> node_set (with_stats st i u) = node_set st.
Proof. intros st i u Hi. now rewrite with_stats_nodes, memN_true. Qed.

Lemma wf_init : forall pre, wf (@init RF pre).
Proof. intro pre. apply dedupN_NoDup. Qed.

Lemma wf_step : forall st o, wf st -> wf (fst (stepR st o)).
Proof.
  intros st o H. unfold wf in *. destruct o; cbn [step fst st_pre]; try assumption.
  - destruct (memN i (st_pre st)) eqn:E; [assumption|]. apply NoDup_snoc; [assumption|now apply memN_false].
  - now apply NoDup_filter.
Qed.

Lemma run_cons : forall st o ops,
  runR st (o :: ops) = (fst (runR (fst (stepR st o)) ops), snd (stepR st o) :: snd (runR (fst (stepR st o)) ops)).
Proof.
  intros. cbn [run]. destruct (stepR st o) as [st1 r]. cbn [fst snd]. destruct (runR st1 ops); reflexivity.
Qed.

Lemma run_inv : forall (P : state RF -> Prop) (Q : op RF -> Prop),
  (forall st o, Q o -> P st -> P (fst (stepR st o))) ->
  forall ops st, Forall Q ops -> P st -> P (fst (runR st ops)).
Proof.
  intros P Q H. induction ops as [|o ops IH]; intros st HQ HP; [exact HP|]. inversion HQ; subst.
  rewrite run_cons. cbn [fst]. apply IH; [|apply H]; assumption.
Qed.

Definition reach (pre : list N) (ops : list (op RF)) : state RF := fst (runR (@init RF pre) ops).

Lemma reach_wf : forall pre ops, wf (reach pre ops).
Proof.
  intros. apply (run_inv wf (fun _ => True)); [intros; now apply wf_step|now apply Forall_forall|apply wf_init].
Qed.

Definition decay_ok (o : op RF) : Prop := match o with Compute d => 0 <= d | _ => True end.

Lemma run_good : forall ops st, wf st -> Forall decay_ok ops ->
  forall m, In (OMap m) (snd (runR st ops)) -> good_map m.
Proof.
  induction ops as [|o ops IH]; intros st Hwf Hd m Hin; [destruct Hin|].
  rewrite run_cons in Hin. cbn [snd] in Hin. inversion Hd as [|? ? Ho Hd']; subst. destruct Hin as [E|Hin].
  - destruct o; cbn [step snd] in E; try discriminate. inversion E; subst. now apply GT_good.
  - apply (IH (fst (stepR st o))); [apply wf_step| |]; assumption.
Qed.

Definition undecay (o : op RF) : op RF := match o with Compute _ => @Compute RF 1 | o => o end.
Definition decay_pos (o : op RF) : Prop := match o with Compute d => 0 < d | _ => True end.

Lemma run_undecay : forall ops st, wf st -> Forall decay_pos ops -> runR st (map undecay ops) = runR st ops.
Proof.
  induction ops as [|o ops IH]; intros st Hwf Hd; [reflexivity|]. inversion Hd as [|? ? Ho Hd']; subst.
  cbn [map]. rewrite !run_cons.
  assert (E : stepR st (undecay o) = stepR st o).
  { destruct o; try reflexivity. cbn [undecay step]. rewrite (GT_decay st 1 d Hwf); [reflexivity|lra|exact Ho]. }
  rewrite E, IH; [reflexivity|apply wf_step|]; assumption.
Qed.

Lemma publish_get : forall (m c : vec RF) i, NoDup (map fst m) ->
  aget (publish c m) i = match aget m i with Some x => Some x | None => aget c i end.
Proof.
  induction m as [|[k a] m IH]; intros c i Hnd; [reflexivity|].
  inversion Hnd as [|? ? Hk Hnd']; subst. unfold publish in *. cbn [fold_left fst snd]. rewrite IH by assumption.
  cbn [aget]. destruct (N.eqb_spec k i) as [->|Hn].
  - rewrite (proj2 (aget_None m i) Hk). rewrite aget_aset, N.eqb_refl. reflexivity.
  - destruct (aget m i); [reflexivity|]. rewrite aget_aset. destruct (N.eqb_spec k i); [contradiction|reflexivity].
Qed.

Lemma GT_fst : forall st d, wf st -> NoDup (map fst (GT st d)) /\ incl (map fst (GT st d)) (keys st).
Proof.
  intros st d Hwf. destruct (GT_cases st Hwf) as [[_ E]|[Hne E]]; rewrite E; [split; [constructor|intros i []]|].
  rewrite map_map. cbn [fst]. rewrite map_id. split; [exact (g_ks (state_graph st Hwf Hne))|apply incl_refl].
Qed.

Definition answer (st : state RF) (i : N) : R :=
  match aget (st_cache st) i with Some x => x | None => @of_Q RF TRUST_UNKNOWN_SCORE end.

Lemma compute_then_query : forall st d i, wf st ->
  In i (map fst (GT st d)) -> answer (fst (stepR st (Compute d))) i = V (GT st d) i.
Proof.
  intros st d i Hwf Hi. unfold answer. cbn [step fst st_cache]. rewrite publish_get by now apply GT_fst.
  unfold V, vget. destruct (aget (GT st d) i) eqn:E; [reflexivity|]. apply aget_None in E. contradiction.
Qed.

(* operations that leave the published score of [i] alone *)
Definition keeps (i : N) (o : op RF) : Prop :=
  match o with
  | Compute _ => False
  | AddPre j => j <> i
  | RemoveNode j => j <> i
  | _ => True
  end.

Lemma keeps_answer : forall ops st i, Forall (keeps i) ops -> answer (fst (runR st ops)) i = answer st i.
Proof.
  intros ops st i H. apply (run_inv (fun st' => answer st' i = answer st i) (keeps i)); [|assumption|reflexivity].
  intros st' o Ho <-. unfold answer. destruct o; cbn [step fst st_cache keeps] in *; try reflexivity.
  - rewrite aget_aset. destruct (N.eqb_spec i0 i); [contradiction|reflexivity].
  - rewrite aget_adel. destruct (N.eqb_spec i0 i); [contradiction|reflexivity].
  - contradiction.
Qed.

(* ids that no operation and no anchor set ever mentioned read 0 *)
Definition mentions (i : N) (o : op RF) : Prop :=
  match o with
  | UpdLocal f t _ => f = i \/ t = i
  | UpdStats j _ => j = i
  | AddPre j => j = i
  | _ => False
  end.

Definition unknown (st : state RF) (i : N) : Prop :=
  wf st /\ ~ In i (st_pre st) /\ aget (st_cache st) i = None /\ ~ In i (node_set st).

Lemma upd_local_ends : forall (l : list (edge RF)) f t nv x,
  In x (flat_map (fun e => [e_from e; e_to e]) (upd_local l f t nv)) ->
  In x (flat_map (fun e => [e_from e; e_to e]) l) \/ f = x \/ t = x.
Proof.
  induction l as [|e l IH]; intros f t nv x H; simpl in H; [tauto|].
  destruct ((e_from e =? f)%N && (e_to e =? t)%N) eqn:E; simpl in *.
  - apply andb_true_iff in E as [<-%N.eqb_eq <-%N.eqb_eq]. tauto.
  - destruct H as [H|[H|H%IH]]; tauto.
Qed.

Lemma unknown_step : forall st o i, ~ mentions i o -> unknown st i -> unknown (fst (stepR st o)) i.
Proof.
  intros st o i Hm (Hwf & Hp & Hc & Hn). split; [now apply wf_step|]. unfold node_set in *. rewrite dedupN_In, in_app_iff in *.
  (* one bullet per operation, in the order of [op]; the clauses are: anchors, cache, node set *)
  destruct o as [f t ok|j u|j|j|j|d|j]; cbn [step fst st_pre st_cache st_local st_stats mentions] in *.
  - split; [assumption|]. split; [assumption|]. intros [H%upd_local_ends|H]; tauto.
  - split; [assumption|]. split; [assumption|].
    rewrite map_fst_aset. destruct (memN j _); rewrite ?in_app_iff; simpl; intuition.
  - split; [|split; [|assumption]].
    + destruct (memN j _); rewrite ?in_app_iff; simpl; intuition.
    + rewrite aget_aset. destruct (N.eqb_spec j i); [contradiction|assumption].
  - split; [rewrite filter_In; tauto|]. split; assumption.
  - split; [assumption|]. split.
    + rewrite aget_adel. destruct (j =? i)%N; [reflexivity|assumption].
    + rewrite in_flat_map in *. intros [(e & [He _]%filter_In & Hx)|H]; apply Hn; eauto.
  - split; [assumption|]. split; [|assumption]. destruct (GT_fst st d Hwf) as [Hnd Hk].
    rewrite publish_get, (proj2 (aget_None (GT st d) i)); [assumption| |assumption].
    intros [H%dedupN_In%in_app_iff|H%filter_In]%Hk%in_app_iff; tauto.
  - split; [assumption|]. split; assumption.
Qed.

Lemma unknown_init : forall pre i, ~ In i pre -> unknown (@init RF pre) i.
Proof.
  intros pre i H. split; [apply wf_init|]. unfold init. cbn [st_pre st_cache]. rewrite aget_None, map_map, map_id, dedupN_In. auto.
Qed.

Lemma query_answer : forall st i, stepR st (Query i) = (st, @OVal RF (answer st i)).
Proof. reflexivity. Qed.

Lemma unknown_score_R : @of_Q RF TRUST_UNKNOWN_SCORE = 0.
Proof. unfold of_Q, TRUST_UNKNOWN_SCORE. cbn. lra. Qed.

Lemma reach_unknown : forall pre ops i, ~ In i pre -> Forall (fun o => ~ mentions i o) ops ->
  answer (reach pre ops) i = 0.
Proof.
  intros pre ops i Hp Hm.
  destruct (run_inv (fun st => unknown st i) _ (fun st o => unknown_step st o i) ops _ Hm (unknown_init pre i Hp))
    as (_ & _ & Hc & _).
  unfold answer, reach. now rewrite Hc, unknown_score_R.
Qed.

(* the corner in which get_trust does NOT return the last computed score: add_pre_trusted
   overwrites it with 0.9, which a lone node's score (1 or 0) never is *)
Lemma addpre_overwrites :
  let st := reach [] [UpdStats 1 UCorrect] in
  In 1%N (map fst (GT st 1)) /\
  snd (stepR (fst (runR (fst (stepR st (@Compute RF 1))) [@AddPre RF 1])) (Query 1)) = @OVal RF (9 / 10) /\
  (V (GT st 1) 1 = 1 \/ V (GT st 1) 1 = 0).
Proof.
  intro st. assert (Hwf : wf st) by apply reach_wf.
  pose proof (GT_good st 1 Hwf Rle_0_1) as [_ Hg]. destruct (GT_cases st Hwf) as [[E _]|[_ E]]; [discriminate|]. rewrite E in *.
  change (keys st) with [1%N] in *. cbn [map fst snd] in *. split; [now left|]. split.
  - rewrite query_answer. unfold answer. cbn [run step fst snd st_cache]. rewrite aget_aset, N.eqb_refl.
    reflexivity.
  - unfold V, vget. cbn [aget]. rewrite N.eqb_refl. destruct Hg as [Hg|Hg]; [left|right; apply (Hg 1%N); now left].
    unfold Rsum in Hg. cbn [fold_right] in Hg. lra.
Qed.

(* "node statistics are equal": every known node has the same multiplier *)
Definition equal_stats (st : state RF) : Prop :=
  forall i j, In i (@keys RF st) -> In j (@keys RF st) ->
              @factor RF ln1p (@stats_of RF st i) = @factor RF ln1p (@stats_of RF st j).

(* a set of identities that receives no (positive) trust statement from outside the set *)
Definition unvouched (st : state RF) (Sy : list N) : Prop :=
  NoDup Sy /\ incl Sy (@node_set RF st) /\ (forall i, In i Sy -> ~ In i (st_pre st)) /\
  (forall e, In e (st_local st) -> 0 < e_val e -> In (e_to e) Sy -> In (e_from e) Sy).

Definition pop_share (st : state RF) (Sy : list N) : R := INR (length Sy) / INR (length (@node_set RF st)).

(* with equal multipliers the returned map is the eigenvector itself, or all zero (multiplier or decay 0) *)
Lemma GT_equal : forall st d, wf st -> node_set st <> [] -> 0 <= d -> equal_stats st ->
  exists t, 0 <= t <= 1 /\ forall i, In i (keys st) -> score st d i = t * V (tv st) i.
Proof.
  (* [c], the sum of the weights, is the common multiplier times the decay, the eigenvector summing to 1 *)
  intros st d Hwf Hne Hd He. set (c := Rsum (map (fun j => weight st j * d) (keys st))).
  assert (Hc : forall i, In i (keys st) -> weight st i * d = c * V (tv st) i).
  { intros i Hi. unfold c, weight.
    rewrite (map_ext_in _ (fun j => @factor RF ln1p (stats_of st i) * d * V (tv st) j))
      by (intros j Hj; rewrite (He j i Hj Hi); ring).
    rewrite Rsum_map_scal, (proj2 (tv_dist st Hwf Hne)). ring. }
  assert (H : 0 <= c) by (apply Rsum_nonneg; intros; now apply weight_nonneg).
  exists (if Rlt_dec 0 c then 1 else 0). split; [destruct (Rlt_dec 0 c); lra|].
  intros i Hi. unfold score, norm. fold c. rewrite (Hc i Hi).
  destruct (Rlt_dec 0 c); [field; lra|]. replace c with 0 by lra. ring.
Qed.

Lemma anchor_floor : forall st d a, wf st -> 0 <= d -> equal_stats st -> In a (st_pre st) ->
  @alpha RF / INR (length (st_pre st)) * vsum (GT st d) <= vget (GT st d) a.
Proof.
  intros st d a Hwf Hd He Ha. destruct (GT_cases st Hwf) as [[_ E]|[Hne E]].
  { rewrite E. unfold vsum, vget. cbn. lra. }
  destruct (GT_equal st d Hwf Hne Hd He) as (t & Ht & G). pose proof (g_pk (state_graph st Hwf Hne) a Ha) as Hk.
  fold (V (GT st d) a). rewrite (GT_V st d a Hwf Hne Hk), (G a Hk). unfold vsum. rewrite fsum_Rsum, E, map_map. cbn [snd].
  rewrite (@map_ext_in N (T RF) (fun i => score st d i) _ _ G), Rsum_map_scal, (proj2 (tv_dist st Hwf Hne)), Rmult_1_r, Rmult_comm.
  apply Rmult_le_compat_l; [lra|now apply tv_floor].
Qed.

Lemma rounds_ge_4 : forall st : state RF, (4 <= rounds_run st)%N.
Proof.
  intro st. destruct (power_char st) as (j & _ & -> & Hx).
  destruct Hx as [Hj|Hx]; [rewrite max_iter_S in Hj; lia|].
  apply exitb_true in Hx. unfold TRUST_MIN_ITERATIONS, TRUST_MIN_ITER_OFFSET, TRUST_CUT1_ITER, TRUST_CUT2_ITER in Hx. lia.
Qed.

Section ClosedState.
Variables (st : state RF) (Sy : list N).
Hypothesis Hwf : wf st.
Hypothesis Ha : st_pre st <> [].
Hypothesis HS : unvouched st Sy.

Lemma share_bounds : node_set st <> [] -> 0 <= pop_share st Sy <= 1.
Proof.
  intro Hne. destruct HS as (H1 & H2 & _). unfold pop_share. pose proof (length_pos_INR _ Hne).
  pose proof (le_INR _ _ (NoDup_incl_length H1 H2)). pose proof (pos_INR (length Sy)). apply Rdiv_unit; lra.
Qed.

(* what the loop leaves in the set: geometric decay with the number of rounds that ran, and next to
   nothing in a small network, where only convergence or the fuel ends the loop *)
Lemma closed_power : node_set st <> [] ->
  massR Sy (tv st) <= (3 / 5) ^ N.to_nat (rounds_run st) * pop_share st Sy /\
  ((length (node_set st) <= 100)%nat -> massR Sy (tv st) < 1 / 1000).
Proof.
  intro Hne. pose proof (share_bounds Hne) as Hsh. destruct HS as (H1 & H2 & H3 & H4).
  pose proof (state_graph st Hwf Hne) as Hg. pose proof (dedupN_NoDup _ : NoDup (node_set st)) as Hn.
  assert (H5 : forall e, In e (pos_edges (st_local st)) -> In (e_to e) Sy -> In (e_from e) Sy).
  { intros e He. apply filter_In in He as [He E%ltb_R]. now apply H4. }
  destruct (power_char st) as (j & -> & -> & Hx). rewrite Nat2N.id.
  pose proof (rounds_mass Hg Sy H1 H2 H3 Ha H5 (S j) _ (init_vec_dist Hg Hn)) as Hm.
  rewrite (init_mass _ Sy H2) in Hm. fold (pop_share st Sy) in Hm. split; [exact Hm|]. intro Hsmall.
  destruct Hx as [Hj|Hx].
  - rewrite max_iter_S in Hj. cbn [rounds] in Hm. rewrite Hj in Hm. pose proof pow_35_50. nra.
  - apply exitb_true in Hx as [[Hc _]|Hx]; [|unfold TRUST_CUT1_N, TRUST_CUT2_N in Hx; lia].
    pose proof (conv_mass Hg Hn Sy H1 H2 H3 Ha H5 _ (loop_dist st Hwf Hne j) Hc) as Hcm. rewrite conv_thr_R in Hcm. lra.
Qed.

Variable d : R.
Hypothesis Hd : 0 <= d.
Hypothesis He : equal_stats st.

(* the map gives the set no more than the eigenvector does; the one-seventh bound is four rounds of decay *)
Lemma closed_mass :
  mass (GT st d) Sy <= (3 / 5) ^ N.to_nat (rounds_run st) * pop_share st Sy /\
  mass (GT st d) Sy <= pop_share st Sy / 7 /\
  ((length (node_set st) <= 100)%nat -> mass (GT st d) Sy < 1 / 1000).
Proof.
  destruct HS as (_ & H2 & _). destruct Sy as [|s Sy'] eqn:ES; [unfold mass, pop_share; cbn; repeat split; intros; lra|].
  rewrite <- ES in *. assert (Hne : node_set st <> []) by (apply (in_nonempty s), H2; rewrite ES; now left).
  assert (Hle : mass (GT st d) Sy <= massR Sy (tv st)).
  { destruct (GT_equal st d Hwf Hne Hd He) as (t & Ht & G). rewrite mass_R. apply Rsum_map_le. intros i Hi.
    pose proof (proj1 (tv_dist st Hwf Hne) i). pose proof (g_nk (state_graph st Hwf Hne) i (H2 i Hi)) as Hk.
    rewrite (GT_V st d i Hwf Hne Hk), (G i Hk). nra. }
  destruct (closed_power Hne) as [Hp Hs]. pose proof (share_bounds Hne). pose proof (rounds_ge_4 st).
  pose proof (pow_antitone (3 / 5) 4 (N.to_nat (rounds_run st)) ltac:(lra) ltac:(lia)).
  assert ((3 / 5) ^ 4 = 81 / 625) by (simpl; lra).
  split; [lra|]. split; [nra|]. intro Hn. specialize (Hs Hn). lra.
Qed.

End ClosedState.
End Ops.
