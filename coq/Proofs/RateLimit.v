(* C14.  One notion carries every bound: [bounded c l n], what a bucket of configuration [c] promises
   of [n] admissions among calls at the times [l].  A fresh bucket keeps it ([fresh_bounded]); below its
   capacity the keyed engine is a finite map of independent buckets ([engine_isolation]), so each key
   keeps it ([engine_key_bounded]); the join limiter and [check_ip] are such engines behind gates, each
   run unmodified on the sub-trace of calls that reach it ([gate_bounded]). *)
From SV Require Import Lib.Base Model.RateLimit.
Local Open Scope N_scope.

Lemma let_pair {A B C} (p : A * B) (f : A -> B -> C) :
  (let '(a, b) := p in f a b) = f (fst p) (snd p).
Proof. now destruct p. Qed.

Lemma Forall2_len {A B} (R : A -> B -> Prop) l l' : Forall2 R l l' -> length l = length l'.
Proof. induction 1; cbn; congruence. Qed.

(* tokens within the burst, window count within max; the third conjunct is what makes a tick at
   zero elapsed time the identity ([tick_zero_elapsed]) *)
Definition Inv (c : cfg) (b : bucket) : Prop :=
  b_tok b <= tok_cap c /\ b_inwin b <= c_max c /\ b_last b - b_wstart b <= c_window c.

Lemma inv_new c now : Inv c (bucket_new c now).
Proof. unfold Inv, bucket_new; cbn. lia. Qed.

Lemma inv_tick c now b : Inv c b -> Inv c (tick c now b).
Proof.
  unfold Inv, tick. intros (H1 & H2 & H3). cbn.
  split; [apply N.le_min_r|]. destruct (c_window c <? now - b_wstart b) eqn:E; lia.
Qed.

Lemma inv_consume c b : Inv c b -> can_admit c b = true -> Inv c (consume c b).
Proof. unfold Inv, consume, can_admit. cbn. lia. Qed.

Lemma inv_try c now b : Inv c b -> Inv c (fst (try_consume c now b)).
Proof.
  intro H. apply (inv_tick c now) in H. unfold try_consume. cbn zeta.
  destruct (can_admit c (tick c now b)) eqn:E; [apply inv_consume|]; assumption.
Qed.

Lemma bucket_run_cons c b t r :
  bucket_run c b (t :: r) =
  (fst (bucket_run c (fst (try_consume c t b)) r),
   snd (try_consume c t b) :: snd (bucket_run c (fst (try_consume c t b)) r)).
Proof. cbn [bucket_run]. now rewrite !let_pair. Qed.

Lemma inv_run c ts : forall b, Inv c b -> Inv c (fst (bucket_run c b ts)).
Proof.
  induction ts as [|t r IH]; intros b H; [exact H|].
  rewrite bucket_run_cons. apply IH, inv_try, H.
Qed.

Lemma bucket_run_app c pre seg : forall b,
  bucket_run c b (pre ++ seg) =
  (fst (bucket_run c (fst (bucket_run c b pre)) seg),
   snd (bucket_run c b pre) ++ snd (bucket_run c (fst (bucket_run c b pre)) seg)).
Proof.
  induction pre as [|t r IH]; intro b; cbn [app].
  - cbn. now destruct (bucket_run c b seg).
  - now rewrite !bucket_run_cons, IH.
Qed.

Lemma try_last c now b : b_last (fst (try_consume c now b)) = now.
Proof. unfold try_consume. cbn zeta. now destruct (can_admit c (tick c now b)). Qed.

(* the token potential: what is left plus one window per admission is paid for by the refill *)
Lemma try_potential c now b :
  b_tok (fst (try_consume c now b)) + (if snd (try_consume c now b) then c_window c else 0)
  <= b_tok b + (now - b_last b) * c_max c.
Proof.
  unfold try_consume, can_admit. cbn zeta.
  destruct (_ && _) eqn:E; cbn in *; lia.
Qed.

Lemma run_potential c ts : forall b,
  ntrue (snd (bucket_run c b ts)) * c_window c + b_tok (fst (bucket_run c b ts))
  <= b_tok b + c_max c * span_from (b_last b) ts.
Proof.
  induction ts as [|t r IH]; intro b; [cbn; lia|].
  rewrite bucket_run_cons. cbn [fst snd ntrue span_from].
  specialize (IH (fst (try_consume c t b))). rewrite try_last in IH.
  pose proof (try_potential c t b). destruct (snd (try_consume c t b)); lia.
Qed.

Lemma bucket_bound c b ts :
  Inv c b ->
  ntrue (snd (bucket_run c b ts)) * c_window c
  <= c_burst c * c_window c + c_max c * span_from (b_last b) ts.
Proof. intros [H _]. pose proof (run_potential c ts b). unfold tok_cap in H. lia. Qed.

Lemma try_window_noreset c now b :
  now - b_wstart b <= c_window c ->
  b_wstart (fst (try_consume c now b)) = b_wstart b /\
  b_inwin (fst (try_consume c now b)) = b_inwin b + (if snd (try_consume c now b) then 1 else 0).
Proof.
  intro H. unfold try_consume. cbn zeta.
  assert (E : (c_window c <? now - b_wstart b) = false) by lia.
  destruct (can_admit c (tick c now b)); cbn; rewrite E; lia.
Qed.

Lemma window_bound c b ts :
  Inv c b ->
  Forall (fun t => t - b_wstart b <= c_window c) ts ->
  b_inwin b + ntrue (snd (bucket_run c b ts)) <= c_max c.
Proof.
  revert b. induction ts as [|t r IH]; intros b HI HF; [destruct HI; cbn; lia|].
  inv HF. rewrite bucket_run_cons. cbn [snd ntrue].
  destruct (try_window_noreset c t b H1) as [Hw Hi].
  specialize (IH _ (inv_try c t b HI)). rewrite Hw, Hi in IH. specialize (IH H2). lia.
Qed.

Lemma try_denied_is_tick c now b :
  snd (try_consume c now b) = false -> fst (try_consume c now b) = tick c now b.
Proof. unfold try_consume. cbn zeta. now destruct (can_admit c (tick c now b)). Qed.

Lemma try_admitted_is_tick_consume c now b :
  snd (try_consume c now b) = true -> fst (try_consume c now b) = consume c (tick c now b).
Proof. unfold try_consume. cbn zeta. now destruct (can_admit c (tick c now b)). Qed.

Lemma tick_zero_elapsed c b : Inv c b -> tick c (b_last b) b = b.
Proof.
  intros (H1 & H2 & H3). unfold tick.
  assert (E : (c_window c <? b_last b - b_wstart b) = false) by lia.
  rewrite E. destruct b. cbn in *. f_equal. lia.
Qed.

Lemma tick_tok_le c now b : b_tok (tick c now b) <= b_tok b + (now - b_last b) * c_max c.
Proof. cbn. lia. Qed.

Lemma tick_inwin_le c now b : b_inwin (tick c now b) <= b_inwin b.
Proof. cbn. destruct (c_window c <? now - b_wstart b); lia. Qed.

Lemma obucket_run_cons c ob t r :
  obucket_run c ob (t :: r) =
  (fst (obucket_run c (Some (fst (obucket_try c t ob))) r),
   snd (obucket_try c t ob) :: snd (obucket_run c (Some (fst (obucket_try c t ob))) r)).
Proof. cbn [obucket_run]. now rewrite !let_pair. Qed.

Lemma obucket_run_some c ts : forall b,
  snd (obucket_run c (Some b) ts) = snd (bucket_run c b ts).
Proof.
  induction ts as [|t r IH]; intro b; [reflexivity|].
  rewrite obucket_run_cons, bucket_run_cons. cbn [snd]. now rewrite IH.
Qed.

Lemma obucket_run_none c t r :
  snd (obucket_run c None (t :: r)) = snd (bucket_run c (bucket_new c t) (t :: r)).
Proof. rewrite obucket_run_cons, bucket_run_cons. cbn [snd]. now rewrite obucket_run_some. Qed.

Inductive subl {A} : list A -> list A -> Prop :=
| subl_nil : forall l, subl [] l
| subl_cons : forall a l1 l2, subl l1 l2 -> subl (a :: l1) (a :: l2)
| subl_skip : forall a l1 l2, subl l1 l2 -> subl l1 (a :: l2).

Lemma subl_refl {A} (l : list A) : subl l l.
Proof. induction l; constructor; assumption. Qed.

Lemma subl_trans {A} (l1 l2 l3 : list A) : subl l1 l2 -> subl l2 l3 -> subl l1 l3.
Proof.
  intros H12 H23. revert l1 H12.
  induction H23 as [l|a m1 m2 H IH|a m1 m2 H IH]; intros l1 H12.
  - inv H12. constructor.
  - inv H12; constructor; auto.
  - apply subl_skip, IH, H12.
Qed.

Lemma Forall_subl {A} {P : A -> Prop} {l' l} : subl l' l -> Forall P l -> Forall P l'.
Proof. induction 1; intro HF; [constructor|inv HF; constructor|inv HF]; auto. Qed.

Lemma span_from_subl l' l : subl l' l -> forall t0, span_from t0 l' <= span_from t0 l.
Proof.
  induction 1 as [l|a l1 l2 H IH|a l1 l2 H IH]; intro t0; cbn [span_from]; [lia| |];
    specialize (IH a); [lia|].
  destruct l1; cbn [span_from] in *; lia.
Qed.

Lemma span_subl {l' l} : subl l' l -> span l' <= span l.
Proof.
  induction 1 as [l|a l1 l2 H IH|a l1 l2 H IH]; cbn [span]; [lia|now apply span_from_subl|].
  destruct l2; cbn [span span_from] in *; lia.
Qed.

Lemma span_from_self t r : span_from t (t :: r) = span_from t r.
Proof. cbn [span_from]. lia. Qed.

Lemma span_from_const t l : Forall (eq t) l -> span_from t l = 0.
Proof. induction 1 as [|? ? <-]; cbn [span_from]; lia. Qed.

Lemma span_const t n : span (repeat t n) = 0.
Proof.
  destruct n; [reflexivity|]. apply span_from_const, Forall_forall. intros x Hx.
  symmetry. exact (repeat_spec _ _ _ Hx).
Qed.

(* what a bucket of configuration [c] promises of [n] admissions among calls made at the times [l]:
   burst plus refill over the elapsed time, and no more than max when all calls fall into one
   window length *)
Definition bounded (c : cfg) (l : list N) (n : N) : Prop :=
  n * c_window c <= c_burst c * c_window c + c_max c * span l /\
  forall t0, Forall (fun t => t0 <= t /\ t <= t0 + c_window c) l -> n <= c_max c.

Lemma bounded_mono {c l' l n' n} : subl l' l -> n' <= n -> bounded c l' n -> bounded c l n'.
Proof.
  intros HS Hn [H1 H2]. split.
  - pose proof (span_subl HS). nia.
  - intros t0 HF. specialize (H2 t0 (Forall_subl HS HF)). lia.
Qed.

Lemma bounded_refill {c l n} :
  bounded c l n -> n * c_window c <= c_burst c * c_window c + c_max c * span l.
Proof. intros [H _]. exact H. Qed.

Lemma bounded_window {c l n} :
  bounded c l n -> forall t0, Forall (fun t => t0 <= t /\ t <= t0 + c_window c) l -> n <= c_max c.
Proof. intros [_ H]. exact H. Qed.

Lemma bounded_burst {c l n} : bounded c l n -> span l = 0 -> 0 < c_window c -> n <= c_burst c.
Proof. intros [H _] E HW. rewrite E in H. nia. Qed.

(* a key's bucket is created at its first use *)
Lemma fresh_bounded c ts : bounded c ts (ntrue (snd (obucket_run c None ts))).
Proof.
  destruct ts as [|t r]; [split; cbn; lia|]. rewrite obucket_run_none.
  pose proof (inv_new c t) as HI. split.
  - apply (bucket_bound c _ (t :: r)) in HI. cbn [bucket_new b_last] in HI.
    now rewrite span_from_self in HI.
  - intros t0 HF. apply (window_bound c _ (t :: r)) in HI; [exact HI|].
    pose proof (Forall_inv HF) as H0. eapply Forall_impl; [|exact HF]. cbn in *. lia.
Qed.

(* A run too short to earn one token: the bucket is a counter.  It holds [j] whole tokens and a
   fraction that stays below one token to the end; whatever the clock readings, it admits exactly
   while a whole token is left and the window count is below max. *)
Fixpoint counter (c : cfg) (j n : N) (len : nat) : list bool :=
  match len with
  | O => []
  | S l => if (1 <=? j) && (n <? c_max c) then true :: counter c (j - 1) (n + 1) l
           else false :: counter c j n l
  end.

Lemma short_run c ts : forall b j,
  j <= c_burst c -> j * c_window c <= b_tok b ->
  b_tok b + c_max c * span_from (b_last b) ts < j * c_window c + c_window c ->
  Forall (fun t => t - b_wstart b <= c_window c) ts ->
  snd (bucket_run c b ts) = counter c j (b_inwin b) (length ts).
Proof.
  induction ts as [|t r IH]; intros b j Hj Hb Hs HF; [reflexivity|].
  inv HF. rewrite bucket_run_cons. cbn [snd length counter span_from] in *.
  unfold try_consume, can_admit, consume, tick. cbn [b_tok b_inwin b_wstart b_last].
  replace (c_window c <? t - b_wstart b) with false by lia.
  (* the tokens after the tick: the same whole tokens, the fraction grown by the refill *)
  set (D := (t - b_last b) * c_max c).
  assert (Ht : j * c_window c <= N.min (b_tok b + D) (tok_cap c) <= b_tok b + D).
  { apply (N.mul_le_mono_r _ _ (c_window c)) in Hj. unfold tok_cap. lia. }
  generalize dependent (N.min (b_tok b + D) (tok_cap c)). intros tok1 Ht.
  replace (c_window c <=? tok1) with (1 <=? j).
  2:{ destruct (N.eq_dec j 0) as [->|]; [lia|]. pose proof (N.mul_le_mono_r 1 j (c_window c)). lia. }
  (* either way the next state is such a bucket again, with one whole token less if admitted *)
  destruct (_ && _) eqn:E; cbn [fst snd]; f_equal;
    apply (IH (mkB _ _ _ _)); cbn [b_tok b_inwin b_wstart b_last]; trivial;
    rewrite ?N.mul_sub_distr_r; lia.
Qed.

Lemma short_fresh c t r :
  Forall (fun u => u - t <= c_window c) r -> c_max c * span_from t r < c_window c ->
  snd (obucket_run c None (t :: r)) = counter c (c_burst c) 0 (S (length r)).
Proof.
  intros HF Hs. rewrite obucket_run_none.
  apply (short_run c (t :: r)); cbn [bucket_new b_tok b_inwin b_wstart b_last]; unfold tok_cap.
  - lia.
  - lia.
  - rewrite span_from_self. lia.
  - constructor; [lia|exact HF].
Qed.

Definition keys (e : engine) : list N := map fst e.

(* a used key moves to the front *)
Lemma e_find_front k k' b e :
  e_find k' ((k, b) :: e_remove k e) = if k =? k' then Some b else e_find k' e.
Proof.
  cbn [e_find]. destruct (N.eqb_spec k k') as [|H]; [reflexivity|].
  induction e as [|[q b'] r IH]; cbn [e_remove e_find]; [reflexivity|].
  destruct (N.eqb_spec q k) as [->|]; cbn [e_find]; rewrite IH; [|reflexivity].
  now destruct (N.eqb_spec k k').
Qed.

Lemma e_remove_absent k e : e_find k e = None -> e_remove k e = e.
Proof.
  induction e as [|[q b] r IH]; cbn [e_find e_remove]; [reflexivity|].
  destruct (q =? k); [discriminate|]. intro H. now rewrite IH.
Qed.

Lemma keys_remove k e : keys (e_remove k e) = filter (fun q => negb (q =? k)) (keys e).
Proof.
  unfold keys. induction e as [|[q b] r IH]; cbn [e_remove map fst filter]; [reflexivity|].
  destruct (q =? k); cbn [negb map fst]; now rewrite IH.
Qed.

(* [U]: all keys in play.  While [U] fits in the capacity the LRU never has to evict. *)
Definition EI (U : list N) (e : engine) : Prop := NoDup (keys e) /\ incl (keys e) U.

Lemma EI_nil U : EI U [].
Proof. split; [constructor|intros x []]. Qed.

Lemma EI_front U k b e : EI U e -> In k U -> EI U ((k, b) :: e_remove k e).
Proof.
  intros [HN HI] Hk. unfold EI. change (keys ((k, b) :: e_remove k e)) with (k :: keys (e_remove k e)).
  rewrite keys_remove. split.
  - constructor; [rewrite filter_In, N.eqb_refl; now intros [_ [=]]|apply NoDup_filter, HN].
  - apply incl_cons; [exact Hk|]. apply incl_tran with (2 := HI), incl_filter.
Qed.

Lemma engine_try_eq c cap now k e U :
  EI U e -> In k U -> N.of_nat (length U) <= cap ->
  engine_try c cap now k e =
  ((k, fst (obucket_try c now (e_find k e))) :: e_remove k e, snd (obucket_try c now (e_find k e))).
Proof.
  intros HE Hk Hcap. unfold engine_try, obucket_try.
  destruct (e_find k e) as [b|] eqn:F; rewrite let_pair; [reflexivity|].
  destruct (EI_front U k (bucket_new c now) e HE Hk) as [HN HI].
  rewrite (e_remove_absent _ _ F) in *.
  apply NoDup_incl_length in HI; [|exact HN].
  unfold e_put. cbn [length keys map] in *. rewrite map_length in HI.
  destruct (cap <? _) eqn:E; [lia|reflexivity].
Qed.

Lemma engine_run_cons c cap e now k r :
  engine_run c cap e ((now, k) :: r) =
  (fst (engine_run c cap (fst (engine_try c cap now k e)) r),
   snd (engine_try c cap now k e) :: snd (engine_run c cap (fst (engine_try c cap now k e)) r)).
Proof. cbn [engine_run]. now rewrite !let_pair. Qed.

(* key isolation: what key k experiences is the run of its own bucket over its own call times *)
Lemma engine_isolation c cap U tr : forall e k,
  EI U e -> incl (map snd tr) U -> N.of_nat (length U) <= cap ->
  results_of k tr (snd (engine_run c cap e tr)) = snd (obucket_run c (e_find k e) (times_of k tr)) /\
  e_find k (fst (engine_run c cap e tr)) = fst (obucket_run c (e_find k e) (times_of k tr)).
Proof.
  induction tr as [|[now q] r IH]; intros e k HE HU Hcap; [cbn; auto|].
  rewrite engine_run_cons. cbn [fst snd results_of times_of].
  pose proof (HU q (or_introl eq_refl)) as Hq. rewrite (engine_try_eq c cap now q e U) by assumption.
  cbn [fst snd]. epose proof (IH _ k (EI_front U q _ e HE Hq) (fun x Hx => HU x (or_intror Hx)) Hcap) as H.
  rewrite e_find_front in H. destruct (N.eqb_spec q k) as [->|]; [|exact H].
  rewrite obucket_run_cons. cbn [fst snd]. now destruct H as [-> ->].
Qed.

Lemma times_of_subl k tr : subl (times_of k tr) (map fst tr).
Proof.
  induction tr as [|[now q] r IH]; cbn [times_of map fst]; [constructor|].
  destruct (q =? k); constructor; exact IH.
Qed.

Definition distinct (l : list N) : N := N.of_nat (length (nodup N.eq_dec l)).

(* a key of an engine that starts empty and whose keys all lie in [l] *)
Lemma engine_key_bounded c cap l tr k :
  incl (map snd tr) l -> distinct l <= cap ->
  bounded c (map fst tr) (ntrue (results_of k tr (snd (engine_run c cap [] tr)))).
Proof.
  intros Hl Hc.
  destruct (engine_isolation c cap (nodup N.eq_dec l) tr [] k) as [-> _];
    [apply EI_nil|apply nodup_incl, Hl|exact Hc|].
  eapply bounded_mono; [apply times_of_subl|apply N.le_refl|apply fresh_bounded].
Qed.

(* engines behind a gate.  In [check_ip] and in the join limiter an engine sees only some of the
   calls: those whose argument has a key for it ([key a = Some p]) and whose overall verdict says
   the earlier levels let them through ([reach x]); [adm x] is then this engine's own answer. *)
Section Gate.
  Context {A R : Type} (key : A -> option N) (reach adm : R -> bool).

  Fixpoint sub_trace (tr : list (N * A)) (rs : list R) : list (N * N) :=
    match tr, rs with
    | (now, a) :: tr', x :: rs' =>
        match key a with
        | Some p => if reach x then (now, p) :: sub_trace tr' rs' else sub_trace tr' rs'
        | None => sub_trace tr' rs'
        end
    | _, _ => []
    end.

  Fixpoint sub_adm (tr : list (N * A)) (rs : list R) : list bool :=
    match tr, rs with
    | (now, a) :: tr', x :: rs' =>
        match key a with
        | Some p => if reach x then adm x :: sub_adm tr' rs' else sub_adm tr' rs'
        | None => sub_adm tr' rs'
        end
    | _, _ => []
    end.

  Lemma sub_trace_times tr : forall rs, subl (map fst (sub_trace tr rs)) (map fst tr).
  Proof.
    induction tr as [|[now a] r IH]; intros [|x xs]; cbn [sub_trace map fst]; try apply subl_nil.
    destruct (key a); [destruct (reach x)|]; cbn [map fst]; constructor; apply IH.
  Qed.

  Fixpoint sub_keys (tr : list (N * A)) : list N :=
    match tr with
    | [] => []
    | (_, a) :: r => match key a with Some p => p :: sub_keys r | None => sub_keys r end
    end.

  Lemma sub_trace_keys tr : forall rs, incl (map snd (sub_trace tr rs)) (sub_keys tr).
  Proof.
    induction tr as [|[now a] r IH]; intros [|x xs]; cbn [sub_trace sub_keys];
      try apply incl_nil_l.
    specialize (IH xs). destruct (key a); [destruct (reach x)|]; cbn [map snd];
      auto using incl_cons, incl_tl, in_eq.
  Qed.

  (* the gated engine keeps the bucket promise towards every count [n] it accounts for *)
  Lemma gate_bounded c cap l p tr rs e' n :
    engine_run c cap [] (sub_trace tr rs) = (e', sub_adm tr rs) ->
    n <= ntrue (results_of p (sub_trace tr rs) (sub_adm tr rs)) ->
    incl (sub_keys tr) l -> distinct l <= cap ->
    bounded c (map fst tr) n.
  Proof.
    intros HE Hn Hl Hc.
    apply (bounded_mono (sub_trace_times tr rs) Hn).
    replace (sub_adm tr rs) with (snd (engine_run c cap [] (sub_trace tr rs))) by now rewrite HE.
    apply engine_key_bounded with (l := l); [|exact Hc].
    apply incl_tran with (2 := Hl), sub_trace_keys.
  Qed.
End Gate.

Lemma join_run_cons jc cap st now ip r :
  join_run jc cap st ((now, ip) :: r) =
  (fst (join_run jc cap (fst (join_check jc cap now ip st)) r),
   snd (join_check jc cap now ip st) :: snd (join_run jc cap (fst (join_check jc cap now ip st)) r)).
Proof. cbn [join_run]. now rewrite !let_pair. Qed.

Lemma engine_run_step c cap e now k tr e1 x s l :
  engine_try c cap now k e = (e1, x) -> engine_run c cap e1 tr = (s, l) ->
  engine_run c cap e ((now, k) :: tr) = (s, x :: l).
Proof. intros E1 E2. cbn [engine_run]. now rewrite E1, E2. Qed.

(* each engine of the join limiter runs, unmodified, on the sub-trace of calls that reach it *)
Lemma join_engines jc cap tr : forall st,
  let st' := fst (join_run jc cap st tr) in
  let rs := snd (join_run jc cap st tr) in
  engine_run (cfgG jc) cap (s_g st) (traceG tr) = (s_g st', map passed_global rs) /\
  engine_run (cfg64 jc) cap (s_64 st) (trace64 tr rs) = (s_64 st', adm64 tr rs) /\
  engine_run (cfg48 jc) cap (s_48 st) (trace48 tr rs) = (s_48 st', adm48 tr rs) /\
  engine_run (cfg24 jc) cap (s_24 st) (trace24 tr rs) = (s_24 st', adm24 tr rs).
Proof.
  induction tr as [|[now ip] r IH]; intro st; cbn zeta; [cbn; auto|].
  rewrite join_run_cons. cbn [fst snd].
  specialize (IH (fst (join_check jc cap now ip st))). cbn zeta in IH.
  set (s2 := fst (join_run jc cap (fst (join_check jc cap now ip st)) r)) in *.
  set (xs := snd (join_run jc cap (fst (join_check jc cap now ip st)) r)) in *.
  revert IH. unfold join_check.
  (* the six exits of [join_check]: the global engine admits and then, for V4, /24 admits or denies,
     for V6, /64 denies or else /48 admits or denies; or the global engine denies (either family).
     At each exit an engine that was called extends its run by [engine_run_step], and one that was
     not keeps its state and its sub-trace. *)
  destruct (engine_try (cfgG jc) cap now 0 (s_g st)) as [g' [|]] eqn:EG; cbn [negb];
    [destruct ip as [a|a];
     [destruct (engine_try (cfg24 jc) cap now (ext24 a) (s_24 st)) as [e24 [|]] eqn:E24
     |destruct (engine_try (cfg64 jc) cap now (ext64 a) (s_64 st)) as [e64 [|]] eqn:E64; cbn [negb];
      [destruct (engine_try (cfg48 jc) cap now (ext48 a) (s_48 st)) as [e48 [|]] eqn:E48|]]
    |destruct ip as [a|a]];
    cbn [negb fst snd s_g s_64 s_48 s_24 traceG trace64 trace48 trace24 adm64 adm48 adm24 map
         passed_global passed_64 is_ok];
    intros (IHg & IH64 & IH48 & IH24); repeat split; eauto using engine_run_step.
Qed.

(* the three subnet levels as gated engines *)
Definition v6key (ext : N -> N) (ip : addr) : option N :=
  match ip with V6 a => Some (ext a) | V4 _ => None end.
Definition v4key (ext : N -> N) (ip : addr) : option N :=
  match ip with V4 a => Some (ext a) | V6 _ => None end.

Lemma levels_gated tr : forall rs,
  trace64 tr rs = sub_trace (v6key ext64) passed_global tr rs /\
  adm64 tr rs = sub_adm (v6key ext64) passed_global passed_64 tr rs /\
  trace48 tr rs = sub_trace (v6key ext48) passed_64 tr rs /\
  adm48 tr rs = sub_adm (v6key ext48) passed_64 is_ok tr rs /\
  trace24 tr rs = sub_trace (v4key ext24) passed_global tr rs /\
  adm24 tr rs = sub_adm (v4key ext24) passed_global is_ok tr rs.
Proof.
  induction tr as [|[now [a|a]] r IH]; intros [|x xs];
    cbn [trace64 adm64 trace48 adm48 trace24 adm24 sub_trace sub_adm v6key v4key];
    try destruct (IH xs) as (-> & -> & -> & -> & -> & ->); repeat split.
Qed.

(* an admitted join from the selected prefix is an admission by the level's engine under key [p] *)
Lemma count_ok_le key reach adm sel p tr :
  (forall ip, sel ip = match key ip with Some q => q =? p | None => false end) ->
  (forall x, is_ok x = true -> reach x = true /\ adm x = true) ->
  forall rs, count_ok sel tr rs <= ntrue (results_of p (sub_trace key reach tr rs) (sub_adm key reach adm tr rs)).
Proof.
  intros Hsel Hok.
  induction tr as [|[now ip] r IH]; intros [|x xs]; cbn [count_ok sub_trace sub_adm];
    try apply N.le_0_l.
  specialize (IH xs). rewrite Hsel. destruct (key ip) as [q|]; [|exact IH].
  destruct (is_ok x) eqn:Ok.
  - destruct (Hok x Ok) as [-> ->]. cbn [results_of]. destruct (q =? p); cbn [andb ntrue]; lia.
  - rewrite andb_false_r. destruct (reach x); cbn [results_of]; [destruct (q =? p); cbn [ntrue]|]; lia.
Qed.

Lemma v6s_keys ext tr : sub_keys (v6key ext) tr = map ext (v6s tr).
Proof. induction tr as [|[t [a|a]] r IH]; cbn [sub_keys v6key v6s map]; congruence. Qed.

Lemma v4s_keys ext tr : sub_keys (v4key ext) tr = map ext (v4s tr).
Proof. induction tr as [|[t [a|a]] r IH]; cbn [sub_keys v4key v4s map]; congruence. Qed.

Lemma join_run_length jc cap tr : forall st, length (snd (join_run jc cap st tr)) = length tr.
Proof.
  induction tr as [|[now ip] r IH]; intro st; [reflexivity|].
  rewrite join_run_cons. cbn [snd length]. now rewrite IH.
Qed.

Lemma count_any_le tr : forall rs, count_ok anyaddr tr rs <= ntrue (map passed_global rs).
Proof.
  induction tr as [|[now ip] r IH]; intros [|x xs]; cbn [count_ok map ntrue anyaddr andb];
    try apply N.le_0_l.
  specialize (IH xs). destruct x; cbn [is_ok passed_global]; lia.
Qed.

(* the global engine has the single key 0 and sees every call *)
Lemma traceG_times tr : map fst (traceG tr) = map fst tr.
Proof. induction tr as [|[now ip] r IH]; cbn [traceG map fst]; congruence. Qed.

Lemma traceG_keys tr : incl (map snd (traceG tr)) [0].
Proof. induction tr as [|[now ip] r IH]; cbn [traceG map snd]; auto using incl_nil_l, incl_cons, in_eq. Qed.

Lemma results_of_all0 tr : forall xs, length xs = length tr -> results_of 0 (traceG tr) xs = xs.
Proof.
  induction tr as [|[now ip] r IH]; intros [|x xs] HL; try discriminate; [reflexivity|].
  injection HL as HL. cbn [traceG results_of]. now rewrite N.eqb_refl, IH.
Qed.

Definition join_fits (cap : N) (tr : list (N * addr)) : Prop :=
  1 <= cap /\ distinct (map ext64 (v6s tr)) <= cap /\ distinct (map ext48 (v6s tr)) <= cap /\
  distinct (map ext24 (v4s tr)) <= cap.

Section JoinBounds.
  Variables (jc : jcfg) (cap : N) (tr : list (N * addr)).
  Hypothesis Hfit : join_fits cap tr.
  Let rs := snd (join_run jc cap js_init tr).
  Let ts := map fst tr.

  Lemma join_bounded_64 p : bounded (cfg64 jc) ts (count_ok (in64 p) tr rs).
  Proof.
    destruct Hfit as (_ & H & _), (join_engines jc cap tr js_init) as (_ & E & _).
    fold rs in E. destruct (levels_gated tr rs) as (Et & Ea & _). rewrite Et, Ea in E.
    eapply gate_bounded; [exact E|apply count_ok_le; now intros []| |exact H].
    rewrite v6s_keys. apply incl_refl.
  Qed.

  Lemma join_bounded_48 p : bounded (cfg48 jc) ts (count_ok (in48 p) tr rs).
  Proof.
    destruct Hfit as (_ & _ & H & _), (join_engines jc cap tr js_init) as (_ & _ & E & _).
    fold rs in E. destruct (levels_gated tr rs) as (_ & _ & Et & Ea & _). rewrite Et, Ea in E.
    eapply gate_bounded; [exact E|apply count_ok_le; now intros []| |exact H].
    rewrite v6s_keys. apply incl_refl.
  Qed.

  Lemma join_bounded_24 p : bounded (cfg24 jc) ts (count_ok (in24 p) tr rs).
  Proof.
    destruct Hfit as (_ & _ & _ & H), (join_engines jc cap tr js_init) as (_ & _ & _ & E).
    fold rs in E. destruct (levels_gated tr rs) as (_ & _ & _ & _ & Et & Ea). rewrite Et, Ea in E.
    eapply gate_bounded; [exact E|apply count_ok_le; now intros []| |exact H].
    rewrite v4s_keys. apply incl_refl.
  Qed.

  (* tokens taken from the global bucket (admitted or later denied by a subnet level) *)
  Lemma join_bounded_global : bounded (cfgG jc) ts (ntrue (map passed_global rs)).
  Proof.
    destruct Hfit as (H & _), (join_engines jc cap tr js_init) as (E & _).
    pose proof (engine_key_bounded (cfgG jc) cap [0] (traceG tr) 0 (traceG_keys tr)
                  (H : distinct [0] <= cap)) as HB.
    cbn [js_init s_g] in E. rewrite E, traceG_times in HB. cbn [snd] in HB.
    rewrite results_of_all0 in HB; [exact HB|]. rewrite map_length. apply join_run_length.
  Qed.

  Lemma join_bounded_total : bounded (cfgG jc) ts (count_ok anyaddr tr rs).
  Proof.
    apply (bounded_mono (subl_refl ts) (count_any_le tr rs)).
    exact join_bounded_global.
  Qed.
End JoinBounds.

Lemma zero_low_eq_iff d a b : zero_low d a = zero_low d b <-> N.shiftr a d = N.shiftr b d.
Proof.
  unfold zero_low. split; intro H; [|now rewrite H].
  rewrite !N.shiftl_mul_pow2 in H. apply N.mul_cancel_r in H; [exact H|].
  apply N.pow_nonzero. discriminate.
Qed.

Lemma zero_low_sub d a : zero_low d a = a - a mod 2 ^ d.
Proof.
  unfold zero_low. rewrite N.shiftl_mul_pow2, N.shiftr_div_pow2.
  symmetry. apply N.add_sub_eq_r. rewrite N.mul_comm. symmetry.
  apply N.div_mod, N.pow_nonzero. discriminate.
Qed.

Lemma zero_low_bits d a i : N.testbit (zero_low d a) i = if i <? d then false else N.testbit a i.
Proof.
  unfold zero_low. destruct (N.ltb_spec i d).
  - apply N.shiftl_spec_low. lia.
  - rewrite N.shiftl_spec_high', N.shiftr_spec by lia. f_equal. lia.
Qed.

Lemma zero_low_eq_bits d a b :
  zero_low d a = zero_low d b <-> forall i, d <= i -> N.testbit a i = N.testbit b i.
Proof.
  split; intro H.
  - intros i Hi. apply (f_equal (fun x => N.testbit x i)) in H. rewrite !zero_low_bits in H.
    now replace (i <? d) with false in H by lia.
  - apply N.bits_inj. intro i. rewrite !zero_low_bits. destruct (N.ltb_spec i d); auto.
Qed.

Lemma zero_low_idem d a : zero_low d (zero_low d a) = zero_low d a.
Proof. apply N.bits_inj. intro i. rewrite !zero_low_bits. now destruct (i <? d). Qed.

Lemma v4_mapped_low d x : x < 4294967296 -> 48 <= d -> zero_low d (v4_mapped x) = 0.
Proof.
  intros Hx Hd. unfold zero_low, v4_mapped. rewrite N.shiftr_div_pow2, N.div_small; [reflexivity|].
  apply N.lt_le_trans with (2 ^ 48); [lia|].
  apply N.pow_le_mono_r; lia.
Qed.

Lemma tb_run_cons c tok g r :
  tb_run c tok (g :: r) =
  (fst (tb_run c (fst (tb_step c g tok)) r), snd (tb_step c g tok) :: snd (tb_run c (fst (tb_step c g tok)) r)).
Proof. cbn [tb_run]. now rewrite !let_pair. Qed.

(* [d]: how many admissions the faster clock is ahead; the slower run's tokens exceed the faster
   run's by at most that many *)
Lemma tb_mono_step c g g' tok tok' d :
  g <= g' -> tok <= tok' + d * c_window c ->
  let r := tb_step c g tok in let r' := tb_step c g' tok' in
  exists d', d' + (if snd r then 1 else 0) = d + (if snd r' then 1 else 0) /\
             fst r <= fst r' + d' * c_window c.
Proof.
  intros Hg Ht. cbn zeta. unfold tb_step.
  apply (N.mul_le_mono_r _ _ (c_max c)) in Hg.
  assert (H1 : N.min (tok + g * c_max c) (tok_cap c)
               <= N.min (tok' + g' * c_max c) (tok_cap c) + d * c_window c) by lia.
  generalize dependent (N.min (tok + g * c_max c) (tok_cap c)).
  generalize dependent (N.min (tok' + g' * c_max c) (tok_cap c)). clear. intros t1' t1 H1.
  destruct (N.leb_spec (c_window c) t1), (N.leb_spec (c_window c) t1'); cbn [fst snd].
  - exists d. lia.
  - (* slow clock admits, fast clock does not: the fast run must be ahead *)
    destruct (N.zero_or_succ d) as [->|[d0 ->]]; [lia|].
    exists d0. rewrite N.mul_succ_l in H1. lia.
  - exists (d + 1). lia.
  - exists d. lia.
Qed.

Lemma tb_mono c gs : forall gs' tok tok' d,
  Forall2 N.le gs gs' -> tok <= tok' + d * c_window c ->
  forall n, ntrue (firstn n (snd (tb_run c tok gs))) <= d + ntrue (firstn n (snd (tb_run c tok' gs'))).
Proof.
  induction gs as [|g r IH]; intros gs' tok tok' d HF Ht n; inv HF.
  - destruct n; cbn; lia.
  - rewrite !tb_run_cons. destruct n as [|n]; cbn [snd firstn ntrue]; [lia|].
    destruct (tb_mono_step c g y tok tok' d H1 Ht) as (d' & Hd & Hle).
    specialize (IH _ _ _ d' H3 Hle n).
    lia.
Qed.

(* the full bucket coincides with its token part while the window counter cannot bind *)
Lemma tb_agrees c gs : forall b,
  b_inwin b + N.of_nat (length gs) <= c_max c ->
  snd (bucket_run c b (times_from (b_last b) gs)) = snd (tb_run c (b_tok b) gs).
Proof.
  induction gs as [|g r IH]; intros b Hlen; [reflexivity|].
  cbn [times_from length] in *. rewrite bucket_run_cons, tb_run_cons. cbn [snd].
  set (t := b_last b + g).
  pose proof (tick_inwin_le c t b) as Hiw.
  assert (Etok : b_tok (tick c t b) = N.min (b_tok b + g * c_max c) (tok_cap c))
    by (cbn; do 3 f_equal; lia).
  unfold try_consume, tb_step, can_admit. cbn zeta. rewrite <- Etok.
  replace (b_inwin (tick c t b) <? c_max c) with true by lia. rewrite andb_true_r.
  destruct (c_window c <=? _); cbn [fst snd]; f_equal; apply IH; cbn [consume b_inwin]; lia.
Qed.

Lemma times_from_length t0 gs : length (times_from t0 gs) = length gs.
Proof. revert t0. induction gs as [|g r IH]; intro t0; cbn; [reflexivity|]. now rewrite IH. Qed.

(* validation::RateLimiter: the shared bucket gates the per-IP engine *)
Definition ip_passed (r : ipres) : bool := negb (ipres_eqb r IpGlobal).
Definition ip_ok (r : ipres) : bool := ipres_eqb r IpOk.

Lemma sub_keys_Some (tr : list (N * N)) : sub_keys Some tr = map snd tr.
Proof. induction tr as [|[t q] r IH]; cbn [sub_keys map snd]; congruence. Qed.

Lemma ip_run_cons c cap st now k r :
  ip_run c cap st ((now, k) :: r) =
  (fst (ip_run c cap (fst (check_ip c cap now k st)) r),
   snd (check_ip c cap now k st) :: snd (ip_run c cap (fst (check_ip c cap now k st)) r)).
Proof. cbn [ip_run]. now rewrite !let_pair. Qed.

Lemma ip_engines c cap tr : forall st,
  let st' := fst (ip_run c cap st tr) in
  let rs := snd (ip_run c cap st tr) in
  bucket_run c (fst st) (map fst tr) = (fst st', map ip_passed rs) /\
  engine_run c cap (snd st) (sub_trace Some ip_passed tr rs) =
    (snd st', sub_adm Some ip_passed ip_ok tr rs).
Proof.
  induction tr as [|[now k] r IH]; intros [g e]; cbn zeta; [cbn; auto|].
  rewrite ip_run_cons. cbn [fst snd map bucket_run].
  specialize (IH (fst (check_ip c cap now k (g, e)))). cbn zeta in IH. revert IH.
  unfold check_ip.
  (* the shared bucket admits and the key's engine answers, or the shared bucket denies *)
  destruct (try_consume c now g) as [g' [|]] eqn:EG;
    [destruct (engine_try c cap now k e) as [e' [|]] eqn:EK|];
    cbn; intros [IHg IHk]; rewrite ?EK, IHg, ?IHk; auto.
Qed.

Lemma ip_run_length c cap tr : forall st, length (snd (ip_run c cap st tr)) = length tr.
Proof.
  induction tr as [|[now k] r IH]; intro st; [reflexivity|].
  rewrite ip_run_cons. cbn [snd length]. now rewrite IH.
Qed.

Lemma count_ip_le k tr : forall rs,
  count_ip k IpOk tr rs
  <= ntrue (results_of k (sub_trace Some ip_passed tr rs) (sub_adm Some ip_passed ip_ok tr rs)).
Proof.
  induction tr as [|[now q] r IH]; intros [|x xs]; cbn [count_ip sub_trace sub_adm];
    try apply N.le_0_l.
  specialize (IH xs).
  destruct x; cbn [ip_passed ipres_eqb negb ip_ok results_of ntrue andb];
    destruct (q =? k); cbn [andb ntrue]; lia.
Qed.

Lemma ip_key_bounded c cap t_create tr k :
  distinct (map snd tr) <= cap ->
  bounded c (map fst tr) (count_ip k IpOk tr (snd (ip_run c cap (ip_init c t_create) tr))).
Proof.
  intro H. destruct (ip_engines c cap tr (ip_init c t_create)) as [_ E].
  eapply gate_bounded; [exact E|apply count_ip_le| |exact H].
  rewrite sub_keys_Some. apply incl_refl.
Qed.
