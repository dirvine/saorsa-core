(* C14 — join and request rate limits hold for every arrival pattern.
   The property theorems, each a few lines from the lemmas of Proofs/RateLimit.v.
   Model: Model/RateLimit.v (token bucket in exact arithmetic, scaled by the window length:
   b_tok = tokens * window, times in ns).  Every clock reading is an input. *)
From SV Require Import Lib.Base Gen.RateLimitConsts Model.RateLimit Proofs.RateLimit.
Local Open Scope N_scope.

(* The numbers the property text states, from the constants regenerated from src/rate_limit.rs:
   1 per /64, 5 per /48, 3 per /24 per hour; global burst 10 and 100 per minute; the LRU holds 100000 keys. *)
Theorem C14_constants :
  j_per64 jcfg_default = 1 /\ j_per48 jcfg_default = 5 /\ j_per24 jcfg_default = 3 /\
  W64 = 3600 * NS /\ W48 = 3600 * NS /\ W24 = 3600 * NS /\
  j_gburst jcfg_default = 10 /\ j_gmax jcfg_default = 100 /\ WG = 60 * NS /\ RL_MAX_KEYS = 100000.
Proof. repeat split; reflexivity. Qed.

(* Reachable states satisfy the invariant (tokens <= burst, window count <= max). *)
Theorem C14_reachable_inv : forall c t0 ts,
  Inv c (bucket_new c t0) /\ Inv c (fst (bucket_run c (bucket_new c t0) ts)).
Proof. intros c t0 ts. split; [apply inv_new|apply inv_run; apply inv_new]. Qed.

(* From ANY reachable state and for ANY later clock readings: admitted <= burst + max*elapsed/window,
   written without division (elapsed = sum of the time differences the bucket observes). *)
Theorem C14_bucket_bound : forall c b ts,
  Inv c b ->
  ntrue (snd (bucket_run c b ts)) * c_window c
  <= c_burst c * c_window c + c_max c * span_from (b_last b) ts.
Proof. exact bucket_bound. Qed.

Theorem C14_bucket_bound_div : forall c b ts,
  Inv c b -> 0 < c_window c ->
  ntrue (snd (bucket_run c b ts)) <= c_burst c + (c_max c * span_from (b_last b) ts) / c_window c.
Proof. intros c b ts HI HW. pose proof (bucket_bound c b ts HI). nia. Qed.

(* While the fixed window that is open in state b has not expired, the number admitted in it
   (already counted + new) never exceeds max. *)
Theorem C14_window_bound : forall c b ts,
  Inv c b ->
  Forall (fun t => t - b_wstart b <= c_window c) ts ->
  b_inwin b + ntrue (snd (bucket_run c b ts)) <= c_max c.
Proof. exact window_bound. Qed.

(* A denied attempt never increases any budget: the bucket after a denial is exactly the bucket
   after letting the same time pass (tick) -- the step an admitted attempt performs as well before
   paying its token --; with zero elapsed time that is the unchanged bucket; and tick adds at most
   the time refill and never raises the window count. *)
Theorem C14_deny_no_gain : forall c now b,
  (snd (try_consume c now b) = false -> fst (try_consume c now b) = tick c now b) /\
  (snd (try_consume c now b) = true -> fst (try_consume c now b) = consume c (tick c now b)) /\
  (Inv c b -> tick c (b_last b) b = b) /\
  b_tok (tick c now b) <= b_tok b + (now - b_last b) * c_max c /\
  b_inwin (tick c now b) <= b_inwin b.
Proof.
  intros c now b. split; [apply try_denied_is_tick|]. split; [apply try_admitted_is_tick_consume|].
  split; [apply tick_zero_elapsed|]. split; [apply tick_tok_le|apply tick_inwin_le].
Qed.

(* Different keys never consume each other's budget: the verdicts key k receives in ANY
   interleaving with other keys are those of k's own bucket run over k's own call times.
   Hypothesis: the distinct keys fit in the LRU (MAX_RATE_LIMIT_KEYS); see the refutation below. *)
Theorem C14_key_isolation : forall c tr k,
  distinct (map snd tr) <= RL_MAX_KEYS ->
  results_of k tr (snd (engine_run c RL_MAX_KEYS [] tr)) = snd (obucket_run c None (times_of k tr)).
Proof.
  intros c tr k H.
  apply (engine_isolation c _ (nodup N.eq_dec (map snd tr)) tr [] k);
    [apply EI_nil|intro x; apply nodup_In|exact H].
Qed.

(* the same, from any engine state and for any capacity, including the final bucket of k *)
Theorem C14_key_isolation_general : forall c cap U tr e k,
  EI U e -> (forall x, In x (map snd tr) -> In x U) -> N.of_nat (length U) <= cap ->
  results_of k tr (snd (engine_run c cap e tr)) = snd (obucket_run c (e_find k e) (times_of k tr)) /\
  e_find k (fst (engine_run c cap e tr)) = fst (obucket_run c (e_find k e) (times_of k tr)).
Proof. intros c cap U tr e k. exact (engine_isolation c cap U tr e k). Qed.

(* one call, admitted or denied, leaves every other key's bucket untouched *)
Theorem C14_other_keys_untouched : forall c cap now k e U k',
  EI U e -> In k U -> N.of_nat (length U) <= cap -> k' <> k ->
  e_find k' (fst (engine_try c cap now k e)) = e_find k' e.
Proof.
  intros c cap now k e U k' HE Hk Hc Hne. rewrite (engine_try_eq c cap now k e U) by assumption.
  cbn [fst]. rewrite e_find_front. destruct (N.eqb_spec k k'); [congruence|reflexivity].
Qed.

(* a denied call leaves its own key with the time-refilled bucket only *)
Theorem C14_deny_no_gain_engine : forall c cap now k e U,
  EI U e -> In k U -> N.of_nat (length U) <= cap ->
  snd (engine_try c cap now k e) = false ->
  e_find k (fst (engine_try c cap now k e)) =
    Some (tick c now (match e_find k e with Some b => b | None => bucket_new c now end)) /\
  (forall k', k' <> k -> e_find k' (fst (engine_try c cap now k e)) = e_find k' e).
Proof.
  intros c cap now k e U HE Hk Hc Hd.
  split; [|intro k'; now apply (C14_other_keys_untouched c cap now k e U)].
  rewrite (engine_try_eq c cap now k e U) in * by assumption. cbn [fst snd] in *.
  rewrite e_find_front, N.eqb_refl. f_equal. exact (try_denied_is_tick _ _ _ Hd).
Qed.

(* a key's admitted requests never exceed burst + refill, nor max inside one window *)
Theorem C14_key_bound : forall c tr k,
  distinct (map snd tr) <= RL_MAX_KEYS ->
  ntrue (results_of k tr (snd (engine_run c RL_MAX_KEYS [] tr))) * c_window c
  <= c_burst c * c_window c + c_max c * span (map fst tr).
Proof. intros c tr k H. exact (bounded_refill (engine_key_bounded c _ _ tr k (incl_refl _) H)). Qed.

Theorem C14_key_window_bound : forall c tr k t0,
  distinct (map snd tr) <= RL_MAX_KEYS ->
  Forall (fun t => t0 <= t /\ t <= t0 + c_window c) (map fst tr) ->
  ntrue (results_of k tr (snd (engine_run c RL_MAX_KEYS [] tr))) <= c_max c.
Proof. intros c tr k t0 H. exact (bounded_window (engine_key_bounded c _ _ tr k (incl_refl _) H) t0). Qed.

(* Known class: more distinct keys than the LRU holds.  Then the least recently used bucket is
   dropped and the key starts again with a full burst: isolation and the per-key bound fail. *)
Theorem C14_key_bound_without_capacity_refuted :
  exists c cap tr k,
    cap < distinct (map snd tr) /\
    c_burst c * c_window c + c_max c * span (map fst tr)
      < ntrue (results_of k tr (snd (engine_run c cap [] tr))) * c_window c.
Proof.
  exists (mkCfg 1000 1 1), 1, [(0, 1); (0, 2); (0, 1)], 1. vm_compute. split; reflexivity.
Qed.

(* validation::RateLimiter::check_ip: the shared global bucket, then the per-IP bucket *)
Theorem C14_check_ip_bounds : forall c t_create tr k,
  distinct (map snd tr) <= RL_MAX_KEYS ->
  let rs := snd (ip_run c RL_MAX_KEYS (ip_init c t_create) tr) in
  ntrue (map ip_passed rs) * c_window c
    <= c_burst c * c_window c + c_max c * span_from t_create (map fst tr) /\
  count_ip k IpOk tr rs * c_window c <= c_burst c * c_window c + c_max c * span (map fst tr).
Proof.
  intros c t_create tr k H. split; [|exact (bounded_refill (ip_key_bounded c _ t_create tr k H))].
  destruct (ip_engines c RL_MAX_KEYS tr (ip_init c t_create)) as [E _].
  pose proof (bucket_bound c (fst (ip_init c t_create)) (map fst tr) (inv_new c t_create)) as HB.
  now rewrite E in HB.
Qed.

(* For every arrival sequence with arbitrary clock readings and every configuration:
   admitted joins from one /64, /48, /24 <= cap + cap*elapsed/hour; attempts that pass the global
   bucket (admitted or denied later) <= burst + max*elapsed/minute. *)
Theorem C14_join_caps : forall jc cap tr,
  join_fits cap tr ->
  let rs := snd (join_run jc cap js_init tr) in
  let T := span (map fst tr) in
  (forall p, count_ok (in64 p) tr rs * W64 <= j_per64 jc * W64 + j_per64 jc * T) /\
  (forall p, count_ok (in48 p) tr rs * W48 <= j_per48 jc * W48 + j_per48 jc * T) /\
  (forall p, count_ok (in24 p) tr rs * W24 <= j_per24 jc * W24 + j_per24 jc * T) /\
  ntrue (map passed_global rs) * WG <= j_gburst jc * WG + j_gmax jc * T /\
  count_ok anyaddr tr rs * WG <= j_gburst jc * WG + j_gmax jc * T.
Proof.
  intros jc cap tr H.
  split; [intro p; exact (bounded_refill (join_bounded_64 jc cap tr H p))|].
  split; [intro p; exact (bounded_refill (join_bounded_48 jc cap tr H p))|].
  split; [intro p; exact (bounded_refill (join_bounded_24 jc cap tr H p))|].
  split; [exact (bounded_refill (join_bounded_global jc cap tr H))|].
  exact (bounded_refill (join_bounded_total jc cap tr H)).
Qed.

(* "per hour": all attempts inside one window length => at most the configured number *)
Theorem C14_join_caps_per_window : forall jc cap tr t0,
  join_fits cap tr ->
  let rs := snd (join_run jc cap js_init tr) in
  (Forall (fun t => t0 <= t /\ t <= t0 + W64) (map fst tr) -> forall p, count_ok (in64 p) tr rs <= j_per64 jc) /\
  (Forall (fun t => t0 <= t /\ t <= t0 + W48) (map fst tr) -> forall p, count_ok (in48 p) tr rs <= j_per48 jc) /\
  (Forall (fun t => t0 <= t /\ t <= t0 + W24) (map fst tr) -> forall p, count_ok (in24 p) tr rs <= j_per24 jc).
Proof.
  intros jc cap tr t0 H.
  split; [intros HF p; exact (bounded_window (join_bounded_64 jc cap tr H p) t0 HF)|].
  split; [intros HF p; exact (bounded_window (join_bounded_48 jc cap tr H p) t0 HF)|].
  intros HF p; exact (bounded_window (join_bounded_24 jc cap tr H p) t0 HF).
Qed.

(* a burst (no time passes): exactly the configured numbers *)
Theorem C14_join_caps_burst : forall jc cap tr,
  join_fits cap tr -> span (map fst tr) = 0 ->
  let rs := snd (join_run jc cap js_init tr) in
  (forall p, count_ok (in64 p) tr rs <= j_per64 jc) /\
  (forall p, count_ok (in48 p) tr rs <= j_per48 jc) /\
  (forall p, count_ok (in24 p) tr rs <= j_per24 jc) /\
  ntrue (map passed_global rs) <= j_gburst jc /\
  count_ok anyaddr tr rs <= j_gburst jc.
Proof.
  intros jc cap tr H HT.
  split; [intro p; exact (bounded_burst (join_bounded_64 jc cap tr H p) HT (eq_refl : 0 < W64))|].
  split; [intro p; exact (bounded_burst (join_bounded_48 jc cap tr H p) HT (eq_refl : 0 < W48))|].
  split; [intro p; exact (bounded_burst (join_bounded_24 jc cap tr H p) HT (eq_refl : 0 < W24))|].
  split; [exact (bounded_burst (join_bounded_global jc cap tr H) HT (eq_refl : 0 < WG))|].
  exact (bounded_burst (join_bounded_total jc cap tr H) HT (eq_refl : 0 < WG)).
Qed.

(* with the shipped defaults: 1 per /64, 5 per /48, 3 per /24, 10 overall *)
Theorem C14_join_caps_burst_defaults : forall tr,
  join_fits RL_MAX_KEYS tr -> span (map fst tr) = 0 ->
  let rs := snd (join_run jcfg_default RL_MAX_KEYS js_init tr) in
  (forall p, count_ok (in64 p) tr rs <= 1) /\
  (forall p, count_ok (in48 p) tr rs <= 5) /\
  (forall p, count_ok (in24 p) tr rs <= 3) /\
  count_ok anyaddr tr rs <= 10.
Proof.
  intros tr H HT. destruct (C14_join_caps_burst jcfg_default RL_MAX_KEYS tr H HT) as (H1 & H2 & H3 & _ & H5).
  repeat split; assumption.
Qed.

(* Each engine of the join limiter is the unmodified keyed engine run on the calls that reach it:
   so isolation, denial and bound theorems above apply per level. *)
Theorem C14_join_levels : forall jc cap tr st,
  let st' := fst (join_run jc cap st tr) in
  let rs := snd (join_run jc cap st tr) in
  engine_run (cfgG jc) cap (s_g st) (traceG tr) = (s_g st', map passed_global rs) /\
  engine_run (cfg64 jc) cap (s_64 st) (trace64 tr rs) = (s_64 st', adm64 tr rs) /\
  engine_run (cfg48 jc) cap (s_48 st) (trace48 tr rs) = (s_48 st', adm48 tr rs) /\
  engine_run (cfg24 jc) cap (s_24 st) (trace24 tr rs) = (s_24 st', adm24 tr rs).
Proof. intros jc cap tr st. exact (join_engines jc cap tr st). Qed.

(* Observation (not excluded by the property text, which speaks of increase only): a join denied
   by a subnet level has already consumed a token of the levels before it.  With the defaults,
   ten attempts from one /64 (one admitted, nine denied) exhaust the global burst, and a first
   attempt from an unrelated /48 is then refused. *)
Theorem C14_denied_join_consumes_global :
  snd (join_run jcfg_default RL_MAX_KEYS js_init
         [(0, V6 1); (0, V6 2); (0, V6 3); (0, V6 4); (0, V6 5); (0, V6 6); (0, V6 7); (0, V6 8);
          (0, V6 9); (0, V6 10); (0, V6 (2 ^ 100))])
  = [JOk; J64; J64; J64; J64; J64; J64; J64; J64; J64; JGlobal].
Proof. vm_compute. reflexivity. Qed.

Theorem C14_prefix_iff : forall d a b,
  (zero_low d a = zero_low d b <-> a / 2 ^ d = b / 2 ^ d) /\
  (zero_low d a = zero_low d b <-> forall i, d <= i -> N.testbit a i = N.testbit b i) /\
  zero_low d a = a - a mod 2 ^ d /\
  (forall i, N.testbit (zero_low d a) i = if i <? d then false else N.testbit a i).
Proof.
  intros d a b. split; [rewrite zero_low_eq_iff, !N.shiftr_div_pow2; reflexivity|].
  split; [apply zero_low_eq_bits|].
  split; [apply zero_low_sub|intro i; apply zero_low_bits].
Qed.

(* two IPv6 addresses share a /64 iff their top 64 bits agree, a /48 iff their top 48 bits agree;
   two IPv4 addresses share a /24 iff their top 24 bits agree *)
Theorem C14_same_prefix : forall a b,
  (ext64 a = ext64 b <-> forall i, 64 <= i -> N.testbit a i = N.testbit b i) /\
  (ext48 a = ext48 b <-> forall i, 80 <= i -> N.testbit a i = N.testbit b i) /\
  (ext24 a = ext24 b <-> forall i, 8 <= i -> N.testbit a i = N.testbit b i) /\
  (ext64 a = ext64 b -> ext48 a = ext48 b).
Proof.
  intros a b. unfold ext64, ext48, ext24. repeat split; try apply zero_low_eq_bits.
  rewrite !zero_low_eq_bits. intros H i Hi. apply H. lia.
Qed.

(* IPv4-mapped IPv6 addresses (::ffff:a.b.c.d) are IPv6 to the limiter and all fall into the one
   /64 and /48 "::" -- they are limited by the /64 rule (stricter with the defaults), not the /24 rule *)
Theorem C14_v4_mapped_share_prefix : forall x,
  x < 4294967296 -> ext64 (v4_mapped x) = 0 /\ ext48 (v4_mapped x) = 0.
Proof. intros x H. split; apply v4_mapped_low; (exact H || lia). Qed.

(* What the correspondence check relies on: a burst too short to earn one token
   (max * elapsed < window), inside the first window, is decided call by call exactly as if the clock
   stood still. *)
Theorem C14_frozen_clock_exact : forall c ts,
  Forall (fun t => t - hd 0 ts <= c_window c) ts ->
  c_max c * span ts < c_window c ->
  snd (obucket_run c None ts) = snd (obucket_run c None (map (fun _ => hd 0 ts) ts)).
Proof.
  intros c [|t r] HF Hs; [reflexivity|]. cbn [map hd span] in *. inv HF.
  assert (HC : Forall (eq t) (map (fun _ => t) r)) by (apply Forall_map, Forall_forall; reflexivity).
  rewrite !short_fresh, map_length; trivial.
  - eapply Forall_impl; [|exact HC]. intros ? <-. lia.
  - rewrite span_from_const; [lia|exact HC].
Qed.

(* Cumulative admissions are monotone in time: if every gap between calls is at least as long,
   at least as many attempts have been admitted after every call (while the window counter
   cannot bind: no more calls than max). *)
Theorem C14_monotone_in_time : forall c t0 gs gs',
  Forall2 N.le gs gs' -> N.of_nat (length gs) + 1 <= c_max c ->
  forall n, ntrue (firstn n (snd (obucket_run c None (t0 :: times_from t0 gs))))
            <= ntrue (firstn n (snd (obucket_run c None (t0 :: times_from t0 gs')))).
Proof.
  intros c t0 gs gs' HF Hlen n. rewrite !obucket_run_none.
  pose proof (Forall2_len _ _ _ HF) as HL.
  (* the first call is a call after gap 0 *)
  assert (E : forall l, t0 :: times_from t0 l = times_from (b_last (bucket_new c t0)) (0 :: l))
    by (intro l; cbn; now rewrite N.add_0_r).
  rewrite !E, !tb_agrees by (cbn [bucket_new b_inwin length]; lia).
  apply (tb_mono c (0 :: gs) (0 :: gs') _ _ 0); [constructor; [lia|exact HF]|lia].
Qed.

Example C14_example_bucket :
  (* 2 tokens/s (max 4 per 2 s), burst 2: burst, denial, refill after 0.5 s and 1.0 s, window cap *)
  snd (obucket_run (mkCfg (2 * NS) 4 2) None
         [0; 0; 0; 500000000; 500000001; 1500000000; 1500000000; 1500000000; 4000000000])
  = [true; true; false; true; false; true; false; false; true].
Proof. vm_compute. reflexivity. Qed.

Example C14_example_join_fits :
  join_fits RL_MAX_KEYS [(0, V6 1); (5, V4 167772161); (7, V6 (2 ^ 64 + 1))] /\
  snd (join_run jcfg_default RL_MAX_KEYS js_init [(0, V6 1); (5, V4 167772161); (7, V6 (2 ^ 64 + 1))])
  = [JOk; JOk; JOk].
Proof. vm_compute. split; [repeat split; discriminate|reflexivity]. Qed.

Example C14_example_inv : Inv (mkCfg 1000 3 2) (bucket_new (mkCfg 1000 3 2) 17).
Proof. apply inv_new. Qed.
