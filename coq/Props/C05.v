(* C05 — hostile inbound bytes are rejected safely; the sender id comes from the connection.
   The property theorems, with the short proofs; the codec theorems and the invariants of the
   handlers are developed in Proofs/Postcard.v and Proofs/Wire.v.
   Models: Model/Postcard.v (generic postcard codec), Model/Wire.v (inbound paths);
   schemas and limits: Gen/Schemas.v, Gen/WireConsts.v (regenerated from the Rust source).

   PARTIAL (as DESIGN.md says): these theorems are about the model.  The model is total, so
   "returns normally" holds for it by construction; panic-freedom and the allocation behaviour
   of the REAL decoders are observed by the differential run (every call under catch_unwind),
   not proved. *)
From SV Require Import Lib.Base Model.Postcard Proofs.Postcard Gen.Schemas Gen.WireConsts Model.Wire Proofs.Wire.
Local Open Scope N_scope.

(* the numbers the property text states, proved from the regenerated constants *)
Theorem C05_constants :
  W_MAX_MESSAGE_AGE_SECS = 300 /\ W_MAX_FUTURE_SECS = 30 /\ W_DHT_MAX_MESSAGE_SIZE = 64 * 1024 /\
  W_DHT_MAX_VALUE_SIZE = 512 /\ W_CORE_MAX_DHT_VALUE_SIZE = 512 /\ W_CORE_MAX_FIND_NODE_COUNT = 20 /\
  W_MAX_RECORD_SIZE = 512.
Proof. repeat split; reflexivity. Qed.

(* every schema generated from the source meets the side conditions of the codec theorems:
   real integer widths, no sequence of zero-sized elements, enum sizes within u32 *)
Theorem C05_schemas_ok : forallb ty_ok all_schemas = true.
Proof. apply forallb_forall. exact schema_ok. Qed.

(* round trip, once for all message types: for every schema and every value the Rust type
   can hold, decoding the encoding (followed by anything) gives the value back and leaves
   exactly the trailing bytes *)
Theorem postcard_roundtrip : forall t, ty_ok t = true ->
  forall v rest, wfb t v = true -> decode t (encode t v ++ rest) = Some (v, rest).
Proof. exact decode_encode. Qed.

Theorem C05_roundtrip_all_schemas : forall t, In t all_schemas ->
  forall v rest, wfb t v = true -> decode t (encode t v ++ rest) = Some (v, rest).
Proof. intros t H. exact (postcard_roundtrip t (schema_ok t H)). Qed.

(* decode is not injective (overlong varints, unnormalised durations are accepted), but what it
   returns is a value of the type, and re-encoding that value is a fixed point of decoding:
   comparing canonical re-encodings (what the correspondence check does) is comparing values *)
Theorem postcard_decode_canonical : forall t, ty_ok t = true ->
  forall inp v rest, decode t inp = Some (v, rest) ->
  wfb t v = true /\ forall r', decode t (encode t v ++ r') = Some (v, r').
Proof.
  intros t Hok inp v rest H. apply (decode_sound t Hok) in H as [Hw _].
  split; [exact Hw|]. intro r'. exact (decode_encode t Hok v r' Hw).
Qed.

(* the executable UTF-8 validator accepts the UTF-8 encoding of every string of Unicode
   scalar values (so [wfb Str] is inhabited by every Rust String) *)
Theorem postcard_utf8_accepts_scalars : forall cs,
  forallb scalar cs = true -> utf8_valid (flat_map utf8_enc cs) = true.
Proof. exact utf8_string_valid. Qed.

(* allocation bound: whatever the input claims in its length prefixes and counts, a decoded
   value holds at most as many dynamically sized items (sequence elements, string and buffer
   bytes, at every nesting depth) as input bytes were consumed; every other part of the value
   has a size fixed by the schema *)
Theorem postcard_alloc_bound : forall t, ty_ok t = true ->
  forall inp v rest, decode t inp = Some (v, rest) ->
  (length rest <= length inp)%nat /\ (elems v <= length inp - length rest)%nat.
Proof. intros t Hok inp v rest H. apply (decode_sound t Hok) in H. lia. Qed.

Theorem C05_alloc_bound_all_schemas : forall t, In t all_schemas ->
  forall inp v rest, decode t inp = Some (v, rest) ->
  (length rest <= length inp)%nat /\ (elems v <= length inp - length rest)%nat.
Proof. intros t H. exact (postcard_alloc_bound t (schema_ok t H)). Qed.

(* a framed message is surfaced iff it decodes and its timestamp lies in [now-300, now+30]
   ([N] subtraction truncates at 0 like saturating_sub); the event carries the decoded
   protocol and data and the CONNECTION's id *)
Theorem C05_window : forall now src bytes ev,
  parse_protocol_message now src bytes = Some ev <->
  exists m rest p d ts,
    decode S_WireMessage bytes = Some (m, rest) /\ wire_fields m = Some (p, d, ts) /\
    now - 300 <= ts /\ ts <= now + 30 /\ ev = mkEv p src d.
Proof.
  intros now src bytes ev. unfold parse_protocol_message, W_MAX_MESSAGE_AGE_SECS, W_MAX_FUTURE_SECS. split.
  - destruct (decode S_WireMessage bytes) as [[m rest]|] eqn:Ed; [|discriminate].
    destruct (wire_fields m) as [[[p d] ts]|] eqn:Ef; [|discriminate].
    destruct (ts <? now - 300) eqn:E1; [discriminate|]. destruct (now + 30 <? ts) eqn:E2; [discriminate|].
    intros [= <-]. exists m, rest, p, d, ts. repeat split; auto; lia.
  - intros (m & rest & p & d & ts & -> & -> & H1 & H2 & ->).
    replace (ts <? now - 300) with false by lia. replace (now + 30 <? ts) with false by lia. reflexivity.
Qed.

(* the surfaced source is the connection's id for EVERY byte string *)
Theorem C05_source : forall now src bytes ev,
  parse_protocol_message now src bytes = Some ev -> ev_source ev = src.
Proof.
  intros now src bytes ev H. apply C05_window in H as (m & rest & p & d & ts & _ & _ & _ & _ & ->). reflexivity.
Qed.

(* ... and nothing about the verdict or the event depends on the sender the payload claims:
   two messages that agree on protocol, data and timestamp are treated identically, whatever
   their [from] fields and whatever follows them *)
Theorem C05_claimed_sender_ignored : forall now src m1 m2 r1 r2,
  wfb S_WireMessage m1 = true -> wfb S_WireMessage m2 = true ->
  wire_fields m1 = wire_fields m2 ->
  parse_protocol_message now src (encode S_WireMessage m1 ++ r1) =
  parse_protocol_message now src (encode S_WireMessage m2 ++ r2).
Proof.
  intros now src m1 m2 r1 r2 H1 H2 Hf. unfold parse_protocol_message.
  rewrite !decode_encode, Hf by (reflexivity || assumption). reflexivity.
Qed.

(* DHT messages over 64 KiB are refused BEFORE decoding: the verdict is the size error whatever
   decoder is plugged in, and the store is untouched *)
Theorem C05_size_gate : forall dec st len data,
  64 * 1024 < len -> dht_handle_with dec st len data = (st, DRejSize).
Proof.
  intros dec st len data H. unfold dht_handle_with, W_DHT_MAX_MESSAGE_SIZE.
  replace (_ <? len) with true by lia. reflexivity.
Qed.

(* caps, for every history of frames handled by the DHT manager front end: no stored value and
   no served value exceeds 512 bytes *)
Theorem C05_caps_manager : forall frames,
  store_ok 512 (fst (dht_run [] frames)) = true /\ Forall dres_ok (snd (dht_run [] frames)).
Proof.
  intro frames. apply (run_inv dht_handle dht_run 512 dres_ok); try reflexivity.
  exact dht_handle_inv.
Qed.

(* a PUT is acknowledged only for a value of at most 512 bytes *)
Theorem C05_put_ack_cap : forall st args st',
  dht_request st V_DhtNetworkOperation_Put args = (st', DReply V_DhtNetworkResult_PutSuccess None) ->
  exists k v, fld F_DhtNetworkOperation_Put_value args = Some (VBytes v) /\
              blen v <= 512 /\ blen v <= 512 /\ st' = s_put k v st.
Proof.
  intros st args st' H. unfold dht_request in H. rewrite N.eqb_refl in H.
  destruct (op_key args F_DhtNetworkOperation_Put_key) as [k|]; [|discriminate].
  destruct (fld F_DhtNetworkOperation_Put_value args) as [[]|]; try discriminate.
  destruct (W_DHT_MAX_VALUE_SIZE <? blen bs) eqn:E1; [discriminate|].
  destruct (W_CORE_MAX_DHT_VALUE_SIZE <? blen bs) eqn:E2; [discriminate|].
  inv H. exists k, bs. unfold W_DHT_MAX_VALUE_SIZE, W_CORE_MAX_DHT_VALUE_SIZE in *. repeat split; lia.
Qed.

(* caps, for every history of requests handled by the core engine and every routing-table
   size: a find-node reply names at most 20 nodes, no stored or served value exceeds 512 bytes *)
Theorem C05_caps_core : forall avail frames,
  store_ok 512 (fst (core_run avail [] frames)) = true /\ Forall cres_ok (snd (core_run avail [] frames)).
Proof.
  intros avail frames. apply (run_inv (core_handle avail) (core_run avail) 512 cres_ok); try reflexivity.
  exact (core_handle_inv avail).
Qed.

(* records: both directions refuse more than 512 bytes; what serialises reads back unchanged *)
Theorem C05_record_deserialize_cap : forall data b, record_deserialize data = ROk b -> blen data <= 512.
Proof.
  intros data b H. unfold record_deserialize, W_MAX_RECORD_SIZE in H.
  destruct (512 <? blen data) eqn:E; [discriminate|]. lia.
Qed.

Theorem C05_record_serialize_cap : forall v b, record_serialize v = ROk b ->
  b = encode S_DhtRecord v /\ blen b <= 512.
Proof.
  intros v b H. unfold record_serialize, W_MAX_RECORD_SIZE in H. cbv zeta in H.
  destruct (512 <? blen (encode S_DhtRecord v)) eqn:E; [discriminate|].
  assert (b = encode S_DhtRecord v) as -> by congruence. split; [reflexivity|lia].
Qed.

Theorem C05_record_roundtrip : forall v b, wfb S_DhtRecord v = true -> record_serialize v = ROk b ->
  record_deserialize b = ROk b.
Proof.
  intros v b Hw H. apply C05_record_serialize_cap in H as [-> Hl]. unfold record_deserialize, W_MAX_RECORD_SIZE.
  replace (512 <? _) with false by lia.
  rewrite <- (app_nil_r (encode S_DhtRecord v)) at 1. rewrite decode_encode by (reflexivity || exact Hw). reflexivity.
Qed.

(* rejects change nothing (model level; the correspondence for this part needs a running node
   and belongs to the network-level check): a frame that is not a matched /rr/ response leaves
   the pending table as it was, and a response completes a request only if the connection it
   arrived on is the peer the request was sent to *)
Theorem C05_dispatch_reject_unchanged : forall pend now src bytes pend' out,
  dispatch pend now src bytes = (pend', out) ->
  match out with
  | DDelivered id payload => p_lookup id pend = Some src /\ pend' = p_remove id pend
  | DEvent e => pend' = pend /\ parse_protocol_message now src bytes = Some e
  | _ => pend' = pend
  end.
Proof.
  intros pend now src bytes pend' out H. unfold dispatch in H. branches H; auto.
  (* a delivered response: the peer found in the table is the connection's *)
  split; [|reflexivity]. etransitivity; [eassumption|]. f_equal. apply bytes_eqb_eq. assumption.
Qed.

(* every outcome of the DHT front end other than an acknowledged PUT leaves the store unchanged *)
Theorem C05_dht_reject_unchanged : forall st data st' r,
  store_ok 512 st = true -> dht_handle st data = (st', r) ->
  st' = st \/ r = DReply V_DhtNetworkResult_PutSuccess None.
Proof.
  intros st data st' r _ H. unfold dht_handle, dht_handle_with, dht_request in H. branches H; auto.
Qed.

(* overlong varints are accepted (decode is not injective) and re-encode canonically *)
Example C05_ex_overlong :
  decode (VarU 64) [128; 0; 7] = Some (VN 0, [7]) /\ encode (VarU 64) (VN 0) = [0] /\
  decode (VarU 16) [255; 255; 3] = Some (VN 65535, []) /\ decode (VarU 16) [255; 255; 4] = None /\
  decode (VarU 64) [255; 255; 255; 255; 255; 255; 255; 255; 255; 2] = None.
Proof. vm_compute. repeat split; reflexivity. Qed.

(* a concrete WireMessage: surfaced with the connection id although it claims another sender;
   rejected one second outside either edge of the window *)
Example C05_ex_window :
  let msg ts := encode S_WireMessage (VTup [VBytes [47; 120]; VBytes [1; 2; 3]; VBytes [101; 118; 105; 108]; VN ts]) in
  let conn := [109; 101] in
  parse_protocol_message 1000 conn (msg 700) = Some (mkEv [47; 120] conn [1; 2; 3]) /\
  parse_protocol_message 1000 conn (msg 699) = None /\
  parse_protocol_message 1000 conn (msg 1030) = Some (mkEv [47; 120] conn [1; 2; 3]) /\
  parse_protocol_message 1000 conn (msg 1031) = None /\
  wfb S_WireMessage (VTup [VBytes [47; 120]; VBytes [1; 2; 3]; VBytes [101; 118; 105; 108]; VN 700]) = true.
Proof. vm_compute. repeat split; reflexivity. Qed.

(* hostile length prefixes: a 6-byte input claiming a 2^32-element sequence is rejected *)
Example C05_ex_hostile_length :
  decode S_DhtResponseWrapper [0; 2; 128; 128; 128; 128; 16; 0] = None /\
  decode Str [2; 195; 40] = None /\ decode Str [2; 195; 169; 9] = Some (VBytes [195; 169], [9]).
Proof. vm_compute. repeat split; reflexivity. Qed.
