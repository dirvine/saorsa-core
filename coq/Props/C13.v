(* C13 — per-subnet and per-ASN admission caps are never exceeded; slots are returned.
   The property theorems; the lemmas and invariants they are proved from are in Proofs/Diversity.v.
   Model: Model/Diversity.v (IPDiversityEnforcer, the DhtCoreEngine admission pipeline,
   BootstrapManager::add_peer). *)
From Coq Require Import QArith.
From SV Require Import Lib.Base Gen.DiversityConsts Model.Diversity Proofs.Diversity.
Local Open Scope N_scope.

(* The numbers the property text and the configuration documentation state, proved from
   the constants regenerated from src/security.rs and src/dht/core_engine.rs. *)
Theorem C13_constants :
  DIV_MAX_SUBNET_TRACKING = 50000 /\
  (DIV_DEF_64 = 1 /\ DIV_DEF_48 = 3 /\ DIV_DEF_32 = 10) /\
  (DIV_DEF_V4_24 = 3 /\ DIV_DEF_V4_16 = 10 /\ DIV_DEF_IP_CAP = 50 /\ (DIV_DEF_FRACTION == 5 # 1000)%Q) /\
  DIV_DEF_ASN = 20 /\ DIV_MULT_24 = 3 /\ DIV_MULT_16 = 10 /\ DIV_REGION_CAP = 50 /\ DIV_BUCKET_K = 8.
Proof. repeat split; reflexivity. Qed.

(* Enforcer: all histories of add / remove / probe / set-network-size.  [hist_ok]: before every step
   each tracking table has room for one more key (the 50 000-entry bound), and Remove is called for
   admitted nodes only. *)

(* every counter is exactly the number of admitted nodes sharing that prefix / ASN / country *)
Theorem C13_counters_are_admitted_nodes : forall c ops,
  hist_ok c enf_init [] ops ->
  forall l k, cnt (getm (run c enf_init ops) l) k = count_adm (adm_run c enf_init [] ops) l k.
Proof. intros c ops H. exact (agree_run c ops enf_init [] agree_init H). Qed.

(* soundness and completeness of one admission: it succeeds if and only if every level of
   the candidate is below its limit (halved, minimum one, for hosting/VPN candidates; the
   IPv4 limits from the network-size rule), counting ADMITTED NODES *)
Theorem C13_complete : forall c s adm an,
  Agree s adm ->
  (add c s an <> None <->
   forall l k lim, In (l, k) (keys_of an) -> limit c (e_size s) (strict an) l = Some lim -> count_adm adm l k < lim).
Proof.
  intros c s adm an A.
  assert (E : add c s an <> None <-> can_accept c s an = true)
    by (unfold add; destruct (can_accept c s an); split; congruence).
  rewrite E, can_accept_iff. split; intros H l k lim; [rewrite <- A | rewrite A]; apply H.
Qed.

(* the limits the code applies: halving with minimum one, the network-size rule and its multiples *)
Theorem C13_limits : forall c size,
  (forall x, halve true x = N.max 1 (x / 2)) /\ (forall x, halve false x = x) /\
  per_ip c size = N.min (c_ipcap c) (N.max 1 (size * c_fnum c / c_fden c)) /\
  full_limit c size V32 = Some (per_ip c size) /\
  full_limit c size V24 = Some (N.min (c4_24 c) (per_ip c size * 3)) /\
  full_limit c size V16 = Some (N.min (c4_16 c) (per_ip c size * 10)) /\
  full_limit c size L64 = Some (c64 c) /\ full_limit c size L48 = Some (c48 c) /\ full_limit c size L32 = Some (c32 c) /\
  full_limit c size LAsn = Some (c_asn c).
Proof. intros. repeat split; reflexivity. Qed.

(* caps at every moment of every history.  [N.max 1 _] is the "minimum one" of the halving
   rule: a hosting/VPN candidate is admitted up to max(1, cap/2) even when cap = 0.
   (a) configured ceiling of the level, whatever the network size did;
   (b) the limit for the LARGEST network size in force so far - this is what holds when the
       size was lowered: counts admitted under a larger size stay, nothing is evicted;
   (c) when sizes never shrink: the limit in force now. *)
Theorem C13_cap_invariant : forall c ops,
  hist_ok c enf_init [] ops ->
  let adm := adm_run c enf_init [] ops in
  (forall l k cap, static_cap c l = Some cap -> count_adm adm l k <= N.max 1 cap) /\
  (forall l k lim, full_limit c (hw_run 0 ops) l = Some lim -> count_adm adm l k <= N.max 1 lim) /\
  (sizes_nondecreasing 0 ops ->
   forall l k lim, full_limit c (e_size (run c enf_init ops)) l = Some lim -> count_adm adm l k <= N.max 1 lim).
Proof.
  intros c ops H adm.
  pose proof (agree_run c ops enf_init [] agree_init H) as A.
  destruct (capinv_run c ops 0 enf_init [] H (capinv_init c 0)) as [_ I].
  assert (B : forall l k lim, full_limit c (hw_run 0 ops) l = Some lim -> count_adm adm l k <= N.max 1 lim)
    by (intros l k lim Hl; unfold adm; rewrite <- A; now apply I).
  split; [|split; [exact B|]].
  - intros l k cap Hc. destruct (full_limit_static c (hw_run 0 ops) l cap Hc) as (lim & Hl & ?).
    specialize (B l k lim Hl). lia.
  - intro Hs. rewrite <- (hw_run_nondecreasing c ops enf_init Hs). exact B.
Qed.

(* with a cap of at least one the [max] disappears *)
Theorem C13_cap_invariant_positive : forall c ops l k cap,
  hist_ok c enf_init [] ops -> static_cap c l = Some cap -> 1 <= cap ->
  count_adm (adm_run c enf_init [] ops) l k <= cap.
Proof. intros c ops l k cap H Hc H1. pose proof (C13_cap_invariant c ops H) as [S _]. specialize (S l k cap Hc). lia. Qed.

(* lowering the network size lowers the IPv4 limits below counts that were admitted earlier:
   default configuration, size 400 -> two nodes on one address; size back to 0 -> limit 1 < 2,
   and the address admits nobody until it is back under the limit *)
Example C13_shrink_example :
  let a := IP4 167837953 in
  let ops := [SetSize 400; Add a no_attrs; Add a no_attrs; SetSize 0] in
  let s := run cfg_default enf_init ops in
  hist_ok cfg_default enf_init [] ops /\
  cnt (getm s V32) 167837953 = 2 /\ full_limit cfg_default (e_size s) V32 = Some 1 /\
  can_accept cfg_default s (analyze a no_attrs) = false /\
  can_accept cfg_default (remove cfg_default (remove cfg_default s (analyze a no_attrs)) (analyze a no_attrs)) (analyze a no_attrs) = true.
Proof.
  cbv zeta. split.
  - (* [Bounded] level by level: evaluated under its binder, the comparison of an unknown
       table length with 50000 unfolds into a tree of 2^16 cases *)
    cbn [hist_ok]. repeat split; intros []; vm_compute; reflexivity.
  - vm_compute. repeat split.
Qed.

(* removing an admitted node gives every slot back, and it can be admitted again *)
Theorem C13_remove_returns : forall c s an s',
  Bounded c s -> add c s an = Some s' ->
  (forall l k, cnt (getm (remove c s' an) l) k = cnt (getm s l) k) /\
  can_accept c (remove c s' an) an = true.
Proof.
  intros c s an s' B H.
  assert (R : forall l k, cnt (getm (remove c s' an) l) k = cnt (getm s l) k) by (intros; now apply remove_add_cnt).
  split; [exact R|]. pose proof (add_some _ _ _ _ H) as [Hc _]. rewrite can_accept_iff in *.
  intros l k lim Hin Hl. rewrite size_remove, (size_add _ _ _ _ H) in Hl. rewrite R. now apply Hc.
Qed.

(* a refused admission consumes nothing (enforcer) *)
Theorem C13_atomic_enforcer : forall c s ip at_,
  snd (step c s (Add ip at_)) = 0 -> fst (step c s (Add ip at_)) = s.
Proof. intros c s ip at_. cbn [step]. destruct (add c s (analyze ip at_)); cbn [fst snd]; [discriminate | reflexivity]. Qed.

(* beyond the tracking bound the property is lost: with room for one tracked /64 the LRU
   table forgets the first node and a second node is admitted into its /64 (cap 1) *)
Example C13_tracking_bound_needed :
  let c := mkCfg 1 3 10 1 3 10 50 1 200 20 1 in
  let a1 := IP6 (2 ^ 64 * 5 + 1) in let a2 := IP6 (2 ^ 64 * 5 + 2) in let b := IP6 (2 ^ 100 + 7) in
  let ops := [Add a1 no_attrs; Add b no_attrs; Add a2 no_attrs] in
  count_adm (adm_run c enf_init [] ops) L64 5 = 2 /\ static_cap c L64 = Some 1.
Proof. vm_compute. split; reflexivity. Qed.

(* Routing-table pipeline: all histories of add_node / evict_node / handle_node_failure (default
   configuration, network size 0 as on that path).
   PARTIAL in one respect, hence the suffix: the hypothesis - fewer than 50 000 operations since
   start - is how these statements stay below the tracking bound.  What is missing: the routing table
   holds at most 256 x 8 entries, so no tracking table can ever fill and the hypothesis could be
   dropped; that needs the accounting lemma tracked keys <= table entries (NoDup/positivity of the
   counter maps), which is not proved here.  The per-step lemmas einv_core_add / einv_core_remove hold
   for ANY state satisfying the invariant with room in the tables. *)

(* counters are the tallies of the routing table, and the caps hold, after any history *)
Theorem C13_pipeline_invariant_partial : forall self ops,
  N.of_nat (length ops) < DIV_MAX_SUBNET_TRACKING ->
  let g := erun cfg_default self eng_init ops in
  (forall l k, cnt (getm (g_enf g) l) k = count_adm (adm_of (g_tab g)) l k) /\
  (forall r, cnt (g_reg g) r = reg_count (g_tab g) r) /\
  (forall k, count_adm (adm_of (g_tab g)) V32 k <= 1 /\ count_adm (adm_of (g_tab g)) V24 k <= 3 /\
             count_adm (adm_of (g_tab g)) V16 k <= 10 /\ count_adm (adm_of (g_tab g)) L64 k <= 1 /\
             count_adm (adm_of (g_tab g)) L48 k <= 3 /\ count_adm (adm_of (g_tab g)) L32 k <= 10) /\
  (forall r, reg_count (g_tab g) r <= 50).
Proof.
  intros self ops H g. destruct (einv_reach cfg_default self ops (N.lt_le_incl _ _ H)) as [A R _ [_ I] RC].
  fold g in A, R, I, RC.
  split; [intros l k; now rewrite count_adm_sum_over|]. split; [intro r; now rewrite reg_count_sum_over|]. split.
  - (* the limits of [cfg_default] at size 0, by evaluation: per_ip = min 50 (max 1 0) = 1, hence
       /24 = min 3 (1 * 3) and /16 = min 10 (1 * 10); the [N.max 1 _] of [CapInv] evaluates away too *)
    intro k. rewrite !count_adm_sum_over, <- !A. repeat split.
    + exact (I V32 k 1 eq_refl). + exact (I V24 k 3 eq_refl). + exact (I V16 k 10 eq_refl).
    + exact (I L64 k 1 eq_refl). + exact (I L48 k 3 eq_refl). + exact (I L32 k 10 eq_refl).
  - intro r. rewrite reg_count_sum_over, <- R. exact (RC r).
Qed.

(* a failed add_node (validator, IP diversity, region cap, full bucket) leaves the table and
   every counter as they were *)
Theorem C13_atomic_pipeline_partial : forall self ops id addr valid,
  N.of_nat (length ops) < DIV_MAX_SUBNET_TRACKING ->
  let g := erun cfg_default self eng_init ops in
  let r := core_add cfg_default self g id addr valid in
  snd r <> 0 ->
  g_tab (fst r) = g_tab g /\
  (forall l k, cnt (getm (g_enf (fst r)) l) k = cnt (getm (g_enf g) l) k) /\
  (forall x, cnt (g_reg (fst r)) x = cnt (g_reg g) x).
Proof.
  intros self ops id addr valid H g r Hr.
  pose proof (einv_reach cfg_default self ops (N.lt_le_incl _ _ H)) as E.
  destruct (einv_core_add cfg_default self _ g id addr valid H E) as [E' T]. fold r in E', T.
  rewrite (T Hr) in E'. repeat split; [exact (T Hr)|intros l k|intro x].
  - now rewrite (ei_agree _ _ _ _ E'), (ei_agree _ _ _ _ E).
  - now rewrite (ei_reg _ _ _ _ E'), (ei_reg _ _ _ _ E).
Qed.

(* eviction / failure removes the node's entries and gives their slots back: afterwards the
   counters are the tallies of the table without that node *)
Theorem C13_evict_returns_partial : forall self ops id,
  N.of_nat (length ops) < DIV_MAX_SUBNET_TRACKING ->
  let g := erun cfg_default self eng_init ops in
  let g' := core_remove cfg_default g id in
  g_tab g' = filter (fun e => negb (en_id e =? id)) (g_tab g) /\
  (forall l k, cnt (getm (g_enf g') l) k = count_adm (adm_of (g_tab g')) l k) /\
  (forall r, cnt (g_reg g') r = reg_count (g_tab g') r).
Proof.
  intros self ops id H g g'.
  destruct (einv_core_remove cfg_default _ g id (N.lt_le_incl _ _ H) (einv_reach cfg_default self ops (N.lt_le_incl _ _ H)))
    as [[A R _ _ _] T].
  fold g' in A, R, T.
  split; [exact T|]. split; [intros l k; now rewrite count_adm_sum_over|intro r; now rewrite reg_count_sum_over].
Qed.

(* an admitted node is tallied under the IP of its address: the gate is applied for every
   address text the library renders (std's parser/printer behaviour as explicit hypotheses) *)
Theorem C13_address_forms :
  forall (parse_sock : list N -> option (ipaddr * N)) (parse_ip : list N -> option ipaddr)
         (show_sock : ipaddr -> N -> list N) (show_ip : ipaddr -> list N)
         (words : ipaddr -> N -> list N) (garbage : list N),
  (forall ip p, parse_sock (show_sock ip p) = Some (ip, p)) ->
  (forall ip, parse_sock (show_ip ip) = None) ->
  (forall ip, parse_ip (show_ip ip) = Some ip) ->
  (forall ip p ch, In ch (show_sock ip p) -> ch <> 32) ->
  (forall ip ch, In ch (show_ip ip) -> ch <> 32) ->
  forall f, f <> FGarbage ->
  gate_text parse_sock parse_ip (render show_sock show_ip words garbage f) = gate_ip f /\ gate_ip f <> None.
Proof.
  intros ps pi ss si w g Rs Ns Ri Ss Si f Hf. split; [|destruct f; cbn; congruence].
  unfold gate_text. destruct f as [ip|ip p|ip p [|]|]; cbn [render gate_ip]; [| | | |congruence].
  - rewrite strip_nospace_all by apply Si. now rewrite Ns, Ri.
  - rewrite strip_nospace_all by apply Ss. now rewrite Rs.
  - rewrite strip_nospace by apply Ss. cbn. now rewrite app_nil_r, Rs.
  - rewrite app_nil_r, strip_nospace_all by apply Ss. now rewrite Rs.
Qed.

(* the hypotheses of C13_address_forms are satisfiable (a toy printer: one digit for the
   address kind, the value, 58, the port) and the suffix is stripped on a concrete text *)
Example C13_strip_example :
  strip_suffix [49; 46; 50; 58; 57; 32; 40; 97; 45; 98; 41] = [49; 46; 50; 58; 57] /\
  strip_suffix [49; 46; 50; 58; 57] = [49; 46; 50; 58; 57].
Proof. vm_compute. split; reflexivity. Qed.

(* bootstrap cache: add_peer is the enforcer's add on the unified analysis of the first
   address, so two IPv4 peers from unrelated networks are both admitted under the default caps *)
Example C13_bootstrap_two_ipv4_networks :
  let '(s1, r1) := boot_add cfg_default enf_init (IP4 167837955) in
  let '(s2, r2) := boot_add cfg_default s1 (IP4 3325256711) in
  r1 = 1 /\ r2 = 1.
Proof. vm_compute. split; reflexivity. Qed.

(* re-announcing a peer that is already listed (new address, any validator verdict) is a pure
   refresh: the entry keeps the address it was admitted under and no counter moves - so a later
   eviction gives back exactly the slots that were taken at admission *)
Theorem C13_refresh_changes_nothing : forall c self g id addr valid,
  listed (g_tab g) id = true -> estep c self g (EAdd id addr valid) = (g, 0).
Proof. intros c self g id addr valid H. cbn [estep]. rewrite H. reflexivity. Qed.

(* non-vacuity: a concrete history through every branch of the pipeline *)
Example C13_pipeline_example :
  let self := 2 ^ 255 in
  let a i := FDisplay (IP4 (167772160 + i)) 9000 true in
  let ops := [EAdd 1 (a 1) true; EAdd 2 (a 1) true; EAdd 3 (a 2) false; EAdd 4 (a 2) true; EAdd 5 (a 3) true;
              EAdd 6 (a 4) true; EEvict 1; EAdd 7 (a 1) true; EFail 9] in
  map snd (map (fun n => estep cfg_default self (erun cfg_default self eng_init (firstn n ops)) (nth n ops (EFail 0))) [0; 1; 2; 3; 4; 5; 6; 7]%nat)
    = [0; 2; 1; 0; 0; 2; 0; 0].
Proof. vm_compute. reflexivity. Qed.
