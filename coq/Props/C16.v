(* C16 - failing or distrusted peers are sidelined exactly as the stated policy says.
   The property theorems; each is an instance of, or is assembled here from, the lemmas of
   Proofs/Eviction.v, Proofs/Selector.v and Proofs/Routing.v.
   Models: Model/Eviction.v (EvictionManager + NodeLivenessState), Model/Selector.v
   (TrustAwarePeerSelector and the engine's two selections, after the fixes of F16a/b/c),
   Model/Routing.v (C02). *)
From Coq Require Import Sorting.Sorted Permutation QArith Lqa Floats.
From SV Require Import Lib.Base Lib.Xor Lib.F64 Lib.ListAux Lib.Isort Gen.EvictionConsts Gen.SelectorConsts
                       Model.Routing Proofs.Routing Model.Eviction Proofs.Eviction Model.Selector Proofs.Selector.
Local Open Scope N_scope.

(* The numbers and comparison operators the property relies on, from the constants
   regenerated from the source (each tied to its use site by the translator). *)
Theorem C16_constants :
  EV_MAX_CONSECUTIVE_FAILURES = 3 /\ (EV_MIN_TRUST_THRESHOLD == 15 # 100)%Q /\
  EV_FAILURE_TEST_IS_GE = 1 /\ EV_SUCCESS_RESETS = 1 /\ EV_FAILURE_INCREMENTS = 1 /\ EV_TRUST_TEST_IS_LT = 1 /\
  (SEL_STORAGE_MIN == 2 # 10)%Q /\ (SEL_STORAGE_WEIGHT == 5 # 10)%Q /\ SEL_STORAGE_EXCLUDES = 1 /\
  (SEL_QUERY_MIN == 1 # 10)%Q /\ (SEL_QUERY_WEIGHT == 3 # 10)%Q /\ SEL_QUERY_KEEPS = 1 /\
  SEL_NEW_USES_FOR_STORAGE = 1 /\
  (SEL_SCALE == inject_Z (10 ^ 30))%Q /\ SEL_DIST_BYTES = 16 /\ LOW_BITS = 128 /\
  SEL_QUERY_WIDEN = 2 /\ SEL_STORAGE_WIDEN = 3.
Proof. repeat split; reflexivity. Qed.

(* For EVERY interleaved history h of success / failure / trust-update / mark / forget events
   over any number of peers, every threshold configuration c and every peer p (T = the type
   of trust values with the code's strict comparison; binary64 in the implementation):
   p is a candidate  <=>  it has a liveness entry and its consecutive failures since its last
   success (or since it was forgotten) reach the limit, or its latest trust score is below the
   threshold, or it is marked. *)
Theorem C16_candidate_iff : forall (T : Type) (ltb : T -> T -> bool) (c : cfg) (h : list ev) (p : N),
  let rh := rev h in
  is_candidate ltb c (s_of (run h) p) = true <->
  (tracked p rh = true /\ max_fail c <= fails_since p rh) \/
  (exists t, last_trust p rh = Some t /\ ltb t (min_trust c) = true) \/
  (exists r, last_mark p rh = Some r).
Proof. exact (@candidate_iff). Qed.

(* ... and for a positive limit (the default is 3) the count alone decides *)
Theorem C16_candidate_iff_positive_limit : forall (T : Type) (ltb : T -> T -> bool) (c : cfg) (h : list ev) (p : N),
  0 < max_fail c ->
  let rh := rev h in
  is_candidate ltb c (s_of (run h) p) = true <->
  max_fail c <= fails_since p rh \/
  (exists t, last_trust p rh = Some t /\ ltb t (min_trust c) = true) \/
  (exists r, last_mark p rh = Some r).
Proof. exact (@candidate_iff_pos). Qed.

(* the reported reason: marked > failures (with the count) > trust *)
Theorem C16_reason_precedence : forall (T : Type) (ltb : T -> T -> bool) (c : cfg) (h : list ev) (p : N),
  reason_of ltb c (s_of (run h) p) =
  match last_mark p (rev h) with
  | Some r => Some r
  | None =>
      if tracked p (rev h) && (max_fail c <=? fails_since p (rev h)) then Some (RFailures (fails_since p (rev h)))
      else match last_trust p (rev h) with
           | Some t => if ltb t (min_trust c) then Some RLowTrust else None
           | None => None
           end
  end.
Proof. exact (@reason_spec). Qed.

(* get_eviction_candidates lists exactly the peers with a reason, each once *)
Theorem C16_candidate_list : forall (T : Type) (ltb : T -> T -> bool) (c : cfg) (h : list ev),
  (forall p r, In (p, r) (candidates ltb c (run h)) <-> reason_of ltb c (s_of (run h) p) = Some r) /\
  NoDup (map fst (candidates ltb c (run h))).
Proof. intros T ltb c h. exact (conj (candidates_in ltb c h) (candidates_nodup ltb c (run h))). Qed.

(* one success clears failure-based candidacy: right after it the counter is 0, the failure
   test is false, and the peer is a candidate only through trust or a mark *)
Theorem C16_success_clears : forall (T : Type) (ltb : T -> T -> bool) (c : cfg) (h : list ev) (p : N),
  0 < max_fail c ->
  let s := run (h ++ [Success p]) in
  fails_of (s_of s p) = 0 /\
  fails_evict c (s_of s p) = false /\
  (is_candidate ltb c (s_of s p) = true <->
   (exists t, last_trust p (rev h) = Some t /\ ltb t (min_trust c) = true) \/
   (exists r, last_mark p (rev h) = Some r)).
Proof.
  intros T ltb c h p Hpos s. subst s.
  rewrite candidate_iff_pos by exact Hpos. rewrite run_spec, rev_unit. unfold spec_pstate, fails_of, fails_evict.
  cbn [tracked fails_since last_trust last_mark p_fails]. rewrite N.eqb_refl.
  split; [reflexivity|]. split; [apply N.leb_gt, Hpos|].
  split; [intros [H|H]; [lia|exact H]|intro H; right; exact H].
Qed.

(* ... and it takes the full number of new failures to become a failure candidate again *)
Theorem C16_success_clears_lasting : forall (T : Type) (c : @cfg T) (h1 h2 : list ev) (p : N),
  N.of_nat (length h2) < max_fail c ->
  fails_evict c (s_of (run (h1 ++ Success p :: h2)) p) = false.
Proof.
  intros T c h1 h2 p H. rewrite run_spec. unfold spec_pstate, fails_evict. cbn [p_fails].
  destruct (tracked p (rev (h1 ++ Success p :: h2))); [|reflexivity].
  apply N.leb_gt. pose proof (fails_since_after_success p h1 h2). lia.
Qed.

(* the u32 counter cannot overflow on histories shorter than 2^32 *)
Theorem C16_failures_bounded : forall (T : Type) (h : list (@ev T)) (p : N),
  fails_since p (rev h) <= N.of_nat (length h).
Proof. intros T h p. rewrite <- (rev_length h). apply fails_since_le_length. Qed.

(* With the degenerate limit 0 the two halves of the policy text contradict each other
   ("0 accumulated failures" holds for everybody): the code follows the iff - a peer with a
   liveness entry is a candidate even right after a success - hence the hypothesis 0 < limit
   in C16_success_clears. *)
Theorem C16_success_clears_limit0_refuted :
  exists (c : @cfg N) (h : list (@ev N)) (p : N),
    max_fail c = 0 /\ is_candidate N.ltb c (s_of (run (h ++ [Success p])) p) = true /\
    last_trust p (rev h) = None /\ last_mark p (rev h) = None.
Proof. exists (mkCfg 0 0), [], 7. vm_compute. repeat split; reflexivity. Qed.

(* For every history: once handle_node_failure / evict_node removed [id], and as long as no
   later add_node / join_network offers it again, it is in no closest-node answer - find_nodes,
   FindNode / FindValue replies, and both engine selections (any number structure, any
   selection configuration, any trust source). *)
Theorem C16_evicted_absent : forall local ops1 o ops2 id, key_ok local ->
  Forall op_ok (ops1 ++ o :: ops2) -> (o = Fail id \/ o = Evict id) ->
  forallb (fun o => negb (offers id o)) ops2 = true ->
  let t := fst (Routing.run (start local) (ops1 ++ o :: ops2)) in
  ~ In id (ids (all_nodes t)) /\
  forall key count, key_ok key ->
    ~ In id (ids (closest t key count)) /\
    ~ In id (ids (handle_find_node t key count)) /\
    ~ In id (ids (handle_find_value t key)) /\
    forall F (S : num F) sel trust_of storage, ~ In id (ids (engine_select S sel trust_of storage t key count)).
Proof.
  intros local ops1 o ops2 id Kl Fa Ho Off t.
  destruct (removed_stays_absent local ops1 o ops2 id Kl Fa Ho Off) as [It Ab]. fold t in It, Ab.
  assert (C : forall l, (forall x, In x l -> In x (all_nodes t)) -> ~ In id (ids l)).
  { intros l Sub H. exact (Ab (incl_map n_id Sub _ H)). }
  split; [exact Ab|]. intros key count Kk.
  repeat split; try (apply C; apply closest_meaning; assumption).
  intros F S sel trust_of storage. apply C, engine_select_wf; assumption.
Qed.

(* select_peers_with_config, for every number structure, configuration, key, trust source,
   candidate list (repetitions allowed) and count: the answer is the first [count] entries of
   the ranking of the eligible candidates; with what is left out it is the candidate list as
   a multiset; it is duplicate-free when the candidates are; it has min(count, #eligible)
   entries; everything in it passed the exclusion test. *)
Theorem C16_selection_wf : forall F (S : num F) (c : scfg) key trust_of cands count,
  let res := select S c key trust_of cands count in
  res = map e_node (firstn (N.to_nat count) (rank S c key trust_of cands)) /\
  (exists rest, Permutation cands (res ++ rest)) /\
  (forall x, In x res -> In x cands) /\
  (NoDup (ids cands) -> NoDup (ids res)) /\
  N.of_nat (length res) = N.min count (N.of_nat (length (filter (elig_node S c key trust_of) cands))) /\
  N.of_nat (length res) <= count.
Proof.
  intros F S c key trust_of cands count res. subst res.
  split; [apply select_firstn|]. split; [apply select_multiset|]. split; [apply select_incl|].
  split; [apply select_nodup|]. split; [apply select_length|]. rewrite select_length. apply N.le_min_l.
Qed.

(* exclusion floor, any configuration with exclude_untrusted: no selected peer has a trust
   (the provider's answer, NaN read as 0 = unknown) below the floor *)
Theorem C16_floor_any_config : forall F (S : num F) (c : scfg) key trust_of cands count x,
  c_excl c = true -> In x (select S c key trust_of cands count) ->
  ltb S (nan0 S (trust_of (n_id x))) (c_min c) = false.
Proof. exact (@select_floor). Qed.

(* storage selections (TrustSelectionConfig::for_storage: floor 0.2, exclusion on) in exact
   arithmetic: every selected peer has trust >= 1/5 *)
Theorem C16_storage_floor : forall key (trust_of : N -> Q) cands count x,
  In x (select qnum (for_storage (fun q => q)) key trust_of cands count) ->
  (SEL_STORAGE_MIN <= trust_of (n_id x))%Q /\ (1 # 5 <= trust_of (n_id x))%Q.
Proof.
  intros key trust_of cands count x H.
  destruct (floor_raw qnum q_laws (for_storage (fun q => q)) key trust_of cands count x eq_refl H) as [B _].
  cbn [ltb qnum c_min for_storage] in B. apply negb_false_iff, Qle_bool_iff in B. split; exact B.
Qed.

(* the same for any number structure satisfying the order laws - binary64 included: under
   exclusion a selected peer's trust is not below the floor, and for a positive floor (0.2) it
   is not NaN either.  Fewer than [count] trusted candidates give a shorter answer
   (C16_selection_wf: length = min(count, #eligible)); there is no fallback that re-admits. *)
Theorem C16_storage_floor_raw : forall F (S : num F), laws S -> forall (c : scfg) key trust_of cands count x,
  c_excl c = true -> In x (select S c key trust_of cands count) ->
  ltb S (trust_of (n_id x)) (c_min c) = false /\
  (ltb S (zero S) (c_min c) = true -> leb S (trust_of (n_id x)) (trust_of (n_id x)) = true).
Proof. intros F S L c key trust_of. exact (floor_raw S L c key trust_of). Qed.

(* the engine: storage selections respect the storage configuration's floor, and every
   engine selection consists of table entries, each id once, at most [count], never the
   local node - for every reachable table *)
Theorem C16_engine_storage_floor : forall F (S : num F) qc sc trust_of t key count x, c_excl sc = true ->
  In x (engine_select S (Some (qc, sc)) trust_of true t key count) ->
  ltb S (nan0 S (trust_of (n_id x))) (c_min sc) = false.
Proof.
  intros F S qc sc trust_of t key count x E H. rewrite engine_select_storage_eq in H.
  exact (select_floor S sc key trust_of _ count x E H).
Qed.

Theorem C16_engine_selection_wf : forall F (S : num F) sel trust_of storage local ops key count,
  key_ok local -> Forall op_ok ops -> key_ok key ->
  let t := fst (Routing.run (start local) ops) in
  let res := engine_select S sel trust_of storage t key count in
  (forall x, In x res -> In x (all_nodes t)) /\ NoDup (ids res) /\ N.of_nat (length res) <= count /\
  ~ In (t_local t) (ids res).
Proof.
  intros F S sel trust_of storage local ops key count Kl Fo Kk.
  exact (engine_select_wf S sel trust_of storage _ key count (reach_inv local ops Kl Fo) Kk).
Qed.

(* The order laws of a number structure (Proofs/Selector.v [laws]: <= is a total preorder on
   numbers, and the operations of the score are monotone on the ranges in which the score
   uses them).  They hold in exact arithmetic: *)
Theorem C16_laws_exact : laws qnum.
Proof. exact q_laws. Qed.

(* For every number structure with these laws - proved for Q above, and the NAMED FLOAT
   ASSUMPTION for binary64 ([laws fnum]: every IEEE-754 operation is the correctly rounded
   exact result, and rounding is monotone) - every configuration (weights outside [0,1] and
   NaN included: they are read through [unit]), trust source (NaN, negative, > 1, infinite
   included), key and candidate list with 256-bit ids:
   the ranking is sorted by (score desc, full XOR distance asc, trust desc); *)
Theorem C16_rank_sorted : forall F (S : num F), laws S -> forall (c : scfg) key trust_of cands,
  key_ok key -> Forall (fun x => key_ok (n_id x)) cands ->
  StronglySorted (fun a b => before_eq S a b = true) (rank S c key trust_of cands).
Proof. intros F S L c key trust_of cands Kk. exact (rank_sorted S L c key trust_of Kk cands). Qed.

(* a peer ranked ahead of another of equal trust is not farther from the key (full 256-bit
   XOR distance, so ids differing only in low-order bytes are told apart); *)
Theorem C16_rank_distance : forall F (S : num F), laws S -> forall (c : scfg) key trust_of cands l1 x l2 y l3,
  key_ok key -> Forall (fun x => key_ok (n_id x)) cands ->
  rank S c key trust_of cands = l1 ++ x :: l2 ++ y :: l3 ->
  feq S (e_trust x) (e_trust y) = true -> e_dist x <= e_dist y.
Proof. intros F S L c key trust_of cands l1 x l2 y l3 Kk K E. exact (proj1 (rank_laws S L c key trust_of Kk cands l1 x l2 y l3 K E)). Qed.

(* a peer ranked ahead of another at equal distance is not less trusted; *)
Theorem C16_rank_trust : forall F (S : num F), laws S -> forall (c : scfg) key trust_of cands l1 x l2 y l3,
  key_ok key -> Forall (fun x => key_ok (n_id x)) cands ->
  rank S c key trust_of cands = l1 ++ x :: l2 ++ y :: l3 ->
  e_dist x = e_dist y -> ltb S (e_trust x) (e_trust y) = false.
Proof. intros F S L c key trust_of cands l1 x l2 y l3 Kk K E. exact (proj2 (rank_laws S L c key trust_of Kk cands l1 x l2 y l3 K E)). Qed.

(* and the cut at [count] obeys both laws: nobody selected stands ahead of an eligible
   candidate that was left out and is closer with equal trust / equally far and more trusted *)
Theorem C16_rank_cut : forall F (S : num F), laws S -> forall (c : scfg) key trust_of cands count x y,
  key_ok key -> Forall (fun x => key_ok (n_id x)) cands ->
  In x (firstn (N.to_nat count) (rank S c key trust_of cands)) ->
  In y (skipn (N.to_nat count) (rank S c key trust_of cands)) ->
  (feq S (e_trust x) (e_trust y) = true -> e_dist x <= e_dist y) /\
  (e_dist x = e_dist y -> ltb S (e_trust x) (e_trust y) = false).
Proof.
  intros F S L c key trust_of cands count x y Kk K Hx Hy.
  apply (not_misranked S), (rank_ordered S L c key trust_of Kk cands x y K).
  - exact (In_firstn _ _ _ Hx).
  - rewrite <- (firstn_skipn (N.to_nat count)). apply in_or_app. right. exact Hy.
  - exact (ss_cut _ _ _ x y (rank_sorted S L c key trust_of Kk cands K) Hx Hy).
Qed.

(* the monotonicity behind both: closer (as xor_distance sees it) and at least as trusted
   gives at least the score *)
Theorem C16_score_monotone : forall F (S : num F), laws S -> forall w d1 d2 t1 t2,
  d1 <= d2 -> d2 < 2 ^ 128 ->
  leb S (unit S t2) (unit S t1) = true ->
  leb S (mul S (dscore S d2) (tfactor S (unit S w) (unit S t2)))
        (mul S (dscore S d1) (tfactor S (unit S w) (unit S t1))) = true.
Proof.
  intros F S L w d1 d2 t1 t2 D1 D2 T.
  exact (proj2 (score_mono S L (unit S w) d1 d2 (unit S t1) (unit S t2) (unit_range S L w) D1 D2
                  (proj1 (unit_range S L t2)) T (proj2 (unit_range S L t1)))).
Qed.

(* with distinct ids the ranking is the ONLY sorted arrangement of the eligible candidates:
   the answer does not depend on the sorting algorithm or on the order of the input *)
Theorem C16_rank_unique : forall F (S : num F), laws S -> forall (c : scfg) key trust_of cands l,
  key_ok key -> Forall (fun x => key_ok (n_id x)) cands -> NoDup (ids cands) ->
  Permutation l (filter (eligible S c) (map (entry S c key trust_of) cands)) ->
  StronglySorted (fun a b => before_eq S a b = true) l -> l = rank S c key trust_of cands.
Proof.
  intros F S L c key trust_of cands l Kk K ND P Srt.
  assert (P' : Permutation l (rank S c key trust_of cands)) by (eapply perm_trans; [exact P|apply Isort.isort_perm]).
  apply (sorted_perm_unique (fun a b => before_eq S a b = true)); [|exact P'|exact Srt|apply rank_sorted; assumption].
  (* before_eq both ways names one id, hence one candidate *)
  intros a b Ha Hb H1 H2. apply (Permutation_in _ P'), rank_in in Ha. apply (Permutation_in _ P'), rank_in in Hb.
  destruct Ha as [xa [Ia [-> _]]]. destruct Hb as [xb [Ib [-> _]]].
  rewrite (nodup_ids_inj cands xa xb ND Ia Ib (before_eq_antisym S c key trust_of xa xb H1 H2)). reflexivity.
Qed.

(* the instances: exact arithmetic, unconditionally ... *)
Theorem C16_rank_exact : forall (c : scfg) key trust_of cands l1 x l2 y l3,
  key_ok key -> Forall (fun x => key_ok (n_id x)) cands ->
  rank qnum c key trust_of cands = l1 ++ x :: l2 ++ y :: l3 ->
  ((e_trust x == e_trust y)%Q -> e_dist x <= e_dist y) /\
  (e_dist x = e_dist y -> (e_trust y <= e_trust x)%Q).
Proof.
  intros c key trust_of cands l1 x l2 y l3 Kk K E.
  destruct (rank_laws qnum q_laws c key trust_of Kk cands l1 x l2 y l3 K E) as [D T]. split.
  - intro H. apply D. unfold feq. cbn [leb qnum]. apply andb_true_iff. rewrite !Qle_bool_iff, H. split; apply Qle_refl.
  - intro H. apply T in H. cbn [ltb qnum] in H. apply negb_false_iff, Qle_bool_iff in H. exact H.
Qed.

(* In exact arithmetic more is true at equal distance AS THE SCORE SEES IT (same top 16 bytes,
   the low bytes may differ): with a weight below 1 the score is strictly increasing in trust,
   so whoever is ranked ahead is at least as trusted - the full-distance tie-break never
   overrides a difference of trust. *)
Theorem C16_rank_trust_scored_distance_exact : forall (c : scfg) key trust_of cands l1 x l2 y l3,
  key_ok key -> Forall (fun x => key_ok (n_id x)) cands ->
  rank qnum c key trust_of cands = l1 ++ x :: l2 ++ y :: l3 ->
  e_dist x / 2 ^ 128 = e_dist y / 2 ^ 128 -> (unit qnum (c_weight c) < 1)%Q ->
  (e_trust y <= e_trust x)%Q.
Proof.
  intros c key trust_of cands l1 x l2 y l3 Kk K E D W.
  destruct (rank_split3 qnum q_laws c key trust_of Kk cands l1 x l2 y l3 K E) as [Ix [Iy B]].
  apply rank_in in Ix. destruct Ix as [nx [_ [-> _]]]. apply rank_in in Iy. destruct Iy as [ny [_ [-> _]]].
  (* [e_dist _ / 2 ^ 128] is the distance as the score sees it, [d16] *)
  change (d16 key (n_id nx) = d16 key (n_id ny)) in D.
  exact (before_eq_scored_tie_exact c key trust_of nx ny B D W).
Qed.

(* ... and binary64 under the named float assumption *)
Theorem C16_rank_binary64 : laws fnum -> forall (c : scfg) key trust_of cands l1 x l2 y l3,
  key_ok key -> Forall (fun x => key_ok (n_id x)) cands ->
  rank fnum c key trust_of cands = l1 ++ x :: l2 ++ y :: l3 ->
  (feq fnum (e_trust x) (e_trust y) = true -> e_dist x <= e_dist y) /\
  (e_dist x = e_dist y -> PrimFloat.ltb (e_trust x) (e_trust y) = false).
Proof.
  intros L c key trust_of cands l1 x l2 y l3 Kk. exact (rank_laws fnum L c key trust_of Kk cands l1 x l2 y l3).
Qed.

(* Trust selection disabled: for every reachable table, key and count, both engine selections are exactly the [count]
   entries of the whole table nearest to the key, nearest first (the 2x / 3x widening is
   invisible) *)
Theorem C16_disabled_is_distance_order : forall F (S : num F) trust_of storage local ops key count,
  key_ok local -> Forall op_ok ops -> key_ok key ->
  let t := fst (Routing.run (start local) ops) in
  engine_select S None trust_of storage t key count = firstn (N.to_nat count) (sort_by_dist key (all_nodes t)).
Proof.
  intros F S trust_of storage local ops key count Kl Fo Kk.
  exact (engine_disabled S trust_of storage _ key count (reach_inv local ops Kl Fo) Kk).
Qed.

(* The defects of the unrepaired source, on a faithful model of the OLD selection (raw trust
   and weight, stable sort on the score alone); by computation in binary64. *)
Definition w_half : float := f64_of_Q (1 # 2).
Definition w_queries : @scfg float := for_queries f64_of_Q.
(* F16a: ids ..09 and ..01 differ only in the last byte, equal trust, offered as [9; 1]: the
   scores tie (the f64 of the top 16 bytes is the same) and the old code answers [9; 1] *)
Theorem C16_old_refuted_tie_keeps_input_order :
  map n_pl (select_old fnum w_queries 0 (fun _ => w_half) [nd 9 9; nd 1 1] 8) = [9; 1] /\
  map n_pl (select fnum w_queries 0 (fun _ => w_half) [nd 9 9; nd 1 1] 8) = [1; 9].
Proof. vm_compute. split; reflexivity. Qed.

(* F16b: equal trust -5 makes the trust factor negative: the farther peer comes first *)
Theorem C16_old_refuted_negative_trust :
  let m5 := PrimFloat.opp (f64_of_Z 5) in
  map n_pl (select_old fnum w_queries 0 (fun _ => m5) [nd (2 ^ 200) 1; nd (2 ^ 255) 9] 8) = [9; 1] /\
  map n_pl (select fnum w_queries 0 (fun _ => m5) [nd (2 ^ 200) 1; nd (2 ^ 255) 9] 8) = [1; 9].
Proof. vm_compute. split; reflexivity. Qed.

(* F16c (new): a trust weight above 1 ranks the LESS trusted of two peers at the same
   distance-as-scored first; also in exact arithmetic, so it is not a rounding effect *)
Theorem C16_old_refuted_weight_above_one :
  let c := mkSC (2 # 1)%Q (1 # 10)%Q false in
  let tr := fun id => if id =? 2 ^ 200 then (9 # 10)%Q else (1 # 10)%Q in
  map n_pl (select_old qnum c 0 tr [nd (2 ^ 200) 1; nd (2 ^ 200 + 1) 2] 8) = [2; 1] /\
  map n_pl (select qnum c 0 tr [nd (2 ^ 200) 1; nd (2 ^ 200 + 1) 2] 8) = [1; 2].
Proof. vm_compute. split; reflexivity. Qed.

Example C16_example_history :
  let c := mkCfg 3 (15 # 100)%Q in
  let lt := fun a b : Q => negb (Qle_bool b a) in
  let h := [Failure 1; Failure 1; Success 2; Failure 1; Trust 2 (1 # 10)%Q; Mark 3 RRejected;
            Failure 4; Success 4; Trust 5 (15 # 100)%Q; Failure 6; Failure 6; Failure 6; Failure 6; Mark 6 RStale] in
  map (fun p => reason_of lt c (s_of (run h) p)) [1; 2; 3; 4; 5; 6; 7] =
    [Some (RFailures 3); Some RLowTrust; Some RRejected; None; None; Some RStale; None] /\
  is_candidate lt c (s_of (run (h ++ [Success 1])) 1) = false /\
  reason_of lt c (s_of (run (h ++ [Forget 6; Failure 6])) 6) = None /\
  length (candidates lt c (run h)) = 4%nat.
Proof. vm_compute. repeat split; reflexivity. Qed.

(* the premises of the ranking theorems are satisfiable (a concrete ranking of four
   candidates in exact arithmetic), storage excludes the two peers below 0.2 *)
Example C16_example_selection :
  let tr := fun id => if id =? 1 then (9 # 10)%Q else if id =? 2 then (1 # 10)%Q
                      else if id =? 2 ^ 250 then (5 # 10)%Q else (-5 # 1)%Q in
  let cands := [nd (2 ^ 255) 4; nd 2 2; nd (2 ^ 250) 3; nd 1 1] in
  key_okb 0 = true /\ forallb (fun x => key_okb (n_id x)) cands = true /\
  map n_pl (select qnum (for_queries (fun q => q)) 0 tr cands 8) = [1; 2; 3; 4] /\
  map n_pl (select qnum (for_storage (fun q => q)) 0 tr cands 8) = [1; 3] /\
  map n_pl (select qnum (for_queries (fun q => q)) 0 tr cands 2) = [1; 2].
Proof.
  intros tr cands.
  (* the answers for 8 and for 2 are prefixes of one ranking, which is evaluated once *)
  assert (R : map n_pl (map e_node (rank qnum (for_queries (fun q => q)) 0 tr cands)) = [1; 2; 3; 4])
    by (vm_compute; reflexivity).
  rewrite !select_firstn, <- !firstn_map, R.
  split; [|split; [|split; [|split]]]; vm_compute; reflexivity.
Qed.

(* the order laws sampled on binary64 at boundary values (validation of the named float
   assumption on a few points, NOT a proof of it) *)
Example C16_float_laws_sample :
  let xs := [PrimFloat.zero; f64_of_Q (1 # 10); w_half; PrimFloat.one; f64_of_N (2 ^ 128 - 1); f64_of_N (2 ^ 64)] in
  forallb (fun a => forallb (fun b =>
     implb (PrimFloat.leb a b)
           (PrimFloat.leb (PrimFloat.div a (scale fnum)) (PrimFloat.div b (scale fnum)) &&
            PrimFloat.leb (PrimFloat.add PrimFloat.one a) (PrimFloat.add PrimFloat.one b) &&
            PrimFloat.leb (PrimFloat.div PrimFloat.one (PrimFloat.add PrimFloat.one b))
                          (PrimFloat.div PrimFloat.one (PrimFloat.add PrimFloat.one a)))) xs) xs = true /\
  unit fnum nan = PrimFloat.zero /\ unit fnum (PrimFloat.opp (f64_of_Z 5)) = PrimFloat.zero /\
  unit fnum infinity = PrimFloat.one /\ unit fnum neg_zero = PrimFloat.zero.
Proof. vm_compute. repeat split; reflexivity. Qed.
