(* C15 — close-group membership needs a Byzantine quorum; f liars cannot force it.
   The property theorems, from the lemmas of Proofs/CloseGroup.v.  Model: Model/CloseGroup.v (exact rationals;
   thresholds are the decimal values of the literals in close_group_validator.rs, regenerated on
   every run into Gen/CloseGroupConsts.v). *)
From SV Require Import Lib.Base Lib.ListAux Gen.CloseGroupConsts Model.CloseGroup Proofs.CloseGroup.
From Coq Require Import QArith.
Local Open Scope Q_scope.

(* The numbers the property text relies on, proved from the regenerated constants:
   71 %, 0.7, unknown trust counts 1/2 (normal mode) resp. 0 (attack mode), minimum witness trust 0.3,
   5 answers, 3 regions, 10 ms collusion window over more than half of at least 3 answers, f = 2,
   2f+1 and 3f+1. *)
Theorem C15_constants :
  CG_THR_BFT == 71 # 100 /\ CG_THR_WEIGHTED == 7 # 10 /\ CG_UNKNOWN_WEIGHT == 1 # 2
  /\ CG_BFT_UNKNOWN_TRUST == 0 /\ CG_MIN_WITNESS_TRUST == 3 # 10
  /\ CG_MIN_PEERS = 5%N /\ CG_MIN_REGIONS = 3%N
  /\ collusion_window_ns = 10000000%N /\ CG_COLLUSION_MIN_RESPONSES = 3%N /\ CG_COLLUSION_DIV = 2%N
  /\ MC_BFT_F = 2%N
  /\ (forall f, required_confirmations f = (2 * f + 1)%N) /\ (forall f, minimum_witnesses f = (3 * f + 1)%N).
Proof. repeat split; reflexivity. Qed.

(* Attack (BFT) mode, every configuration, every response vector, every candidate trust:
   accepted  <=>  enough answers, candidate not below the trust gate, at least the minimum number of
   sufficiently trusted witnesses answered (and at least one), the confirming fraction of them is at
   least the threshold (cross-multiplied), the confirmations span the required number of regions, and
   the collusion flag is down. *)
Theorem C15_bft_needs_quorum : forall c rs cand,
  v_valid (validate_membership c true rs cand) = true <->
  ((c_min_peers c <= lenN rs)%N /\ candidate_low c cand = false
   /\ (c_min_peers c <= lenN (trusted c rs))%N /\ (0 < lenN (trusted c rs))%N
   /\ c_thr_bft c * QofN (lenN (trusted c rs)) <= QofN (confirmations (trusted c rs))
   /\ (c_min_regions c <= count_confirming_regions rs)%N
   /\ detect_collusion (map r_latency (trusted c rs)) = false).
Proof. intros c rs cand. rewrite valid_bft_spec. apply bft_accept_spec_iff. Qed.

(* 3f+1 trusted witnesses of which at most f confirm (f answer arbitrarily, all the others deny):
   rejected, for every f, whatever the untrusted witnesses say, for every threshold >= 1/3 ... *)
Theorem C15_f_liars : forall c rs cand f,
  (1 # 3) <= c_thr_bft c ->
  lenN (trusted c rs) = (3 * f + 1)%N ->
  (confirmations (trusted c rs) <= f)%N ->
  v_valid (validate_membership c true rs cand) = false.
Proof.
  intros c rs cand f Hthr Hn Hk. rewrite valid_bft_spec. apply bft_minority_rejected; [exact Hthr|lia].
Qed.

(* ... in particular for the threshold in the source (0.71, regenerated) *)
Theorem C15_f_liars_default : forall c rs cand f,
  c_thr_bft c == CG_THR_BFT ->
  lenN (trusted c rs) = (3 * f + 1)%N ->
  (confirmations (trusted c rs) <= f)%N ->
  v_valid (validate_membership c true rs cand) = false.
Proof. intros c rs cand f E. apply C15_f_liars. rewrite E. compute. discriminate. Qed.

(* stronger form: fewer than a third of the trusted witnesses confirming is never enough *)
Theorem C15_minority_cannot_force : forall c rs cand,
  (1 # 3) <= c_thr_bft c ->
  (3 * confirmations (trusted c rs) < lenN (trusted c rs))%N ->
  v_valid (validate_membership c true rs cand) = false.
Proof. intros c rs cand. rewrite valid_bft_spec. apply bft_minority_rejected. Qed.

(* configuration derived from MaintenanceConfig (threshold (2f+1)/(3f+1), 3f+1 answers required):
   with exactly 3f+1 trusted answers, acceptance needs 2f+1 confirmations *)
Theorem C15_maintenance_quorum : forall f rs cand, let c := cfg_from_maintenance f in
  lenN (trusted c rs) = (3 * f + 1)%N ->
  v_valid (validate_membership c true rs cand) = true -> (2 * f + 1 <= confirmations (trusted c rs))%N.
Proof.
  cbv zeta. intros f rs cand Hn V. rewrite valid_bft_spec in V. apply bft_accept_spec_iff in V.
  destruct V as (_ & _ & _ & _ & Hq & _). rewrite Hn in Hq. cbn [c_thr_bft cfg_from_maintenance] in Hq.
  rewrite required_confirmations_eq, minimum_witnesses_eq in Hq.
  assert (P : 0 < QofN (3 * f + 1)) by (apply QofN_pos; lia).
  rewrite Qmult_comm, Qmult_div_r in Hq by (intro Z; rewrite Z in P; discriminate).
  apply QofN_le, Hq.
Qed.

(* Normal mode: accepted <=> enough answers, candidate gate, and the confirming share of the witness
   weight (unknown trust = 1/2, never negative) reaches the threshold.  Regions never reject here. *)
Theorem C15_weighted : forall c rs cand,
  v_valid (validate_membership c false rs cand) = true <->
  ((c_min_peers c <= lenN rs)%N /\ candidate_low c cand = false
   /\ let tw := sumQ (map weight_of rs) in
      let cw := sumQ (map weight_of (filter r_confirms rs)) in
      (0 < tw /\ c_thr_weighted c * tw <= cw) \/ (tw <= 0 /\ c_thr_weighted c <= 0)).
Proof. intros c rs cand. rewrite valid_weighted_spec. apply weighted_accept_spec_iff. Qed.

(* Both modes, every configuration: turning any set of confirmations into denials (everything else
   unchanged) never turns a rejection into an acceptance. *)
Theorem C15_flip_monotone : forall c attack rs' rs cand,
  flipped rs' rs ->
  v_valid (validate_membership c attack rs' cand) = true ->
  v_valid (validate_membership c attack rs cand) = true.
Proof. exact flip_monotone. Qed.

Theorem C15_flip_one : forall c attack i rs cand,
  v_valid (validate_membership c attack rs cand) = false ->
  v_valid (validate_membership c attack (flip_at i rs) cand) = false.
Proof.
  intros c attack i rs cand H. apply Bool.not_true_is_false. intro E.
  apply (C15_flip_monotone c attack _ _ cand (flip_at_flipped i rs)) in E. congruence.
Qed.

(* The clamp of weights at zero is necessary: with raw weights (the code before the repair, see
   design/C15.md) a witness with a negative trust score makes the weighted decision non-monotone. *)
Theorem C15_flip_monotone_raw_weights_refuted :
  exists rs' rs, flipped rs' rs /\ weighted_accept_raw cfg_default rs' None = true
                 /\ weighted_accept_raw cfg_default rs None = false.
Proof.
  pose (w := fun (b : bool) (t : Z) => mkResp b (Some (t # 4)) None 0).
  exists [w false (-2)%Z; w true 3%Z; w true 3%Z; w false 1%Z; w false 1%Z],
         [w true (-2)%Z; w true 3%Z; w true 3%Z; w false 1%Z; w false 1%Z].
  split; [|split; vm_compute; reflexivity].
  constructor; [repeat split; cbn; discriminate|]. apply flipped_refl.
Qed.

(* Unanimous confirmation, attack mode: accepted exactly under the stated side conditions
   (threshold at most 1, enough trusted witnesses, regions, collusion flag down, candidate gate). *)
Theorem C15_unanimous_accept_bft : forall c rs cand,
  Forall (fun r => r_confirms r = true) rs ->
  (c_min_peers c <= lenN rs)%N -> candidate_low c cand = false ->
  (c_min_peers c <= lenN (trusted c rs))%N -> (0 < lenN (trusted c rs))%N ->
  c_thr_bft c <= 1 ->
  (c_min_regions c <= count_confirming_regions rs)%N ->
  detect_collusion (map r_latency (trusted c rs)) = false ->
  v_valid (validate_membership c true rs cand) = true.
Proof.
  intros c rs cand Hall H1 H2 H3 H4 H5 H6 H7. rewrite valid_bft_spec. apply bft_accept_spec_iff.
  repeat split; auto. unfold confirmations.
  rewrite filter_all by (eapply incl_Forall; [apply incl_filter|exact Hall]).
  apply Qmult_le_self; [exact H5|apply QofN_nonneg].
Qed.

(* "distinct response times": pairwise at least the 10 ms window apart keeps the flag down
   (merely different times do not: see C15_example_collusion) *)
Theorem C15_no_collusion_when_apart : forall lats,
  pairwise_apart collusion_window_ns lats -> detect_collusion lats = false.
Proof.
  intros lats P. unfold detect_collusion. destruct (_ <? _)%N; [reflexivity|].
  rewrite similar_count_gapped by apply isort_gapped, P. apply N.ltb_ge, N.le_0_l.
Qed.

(* Unanimous confirmation, normal mode *)
Theorem C15_unanimous_accept_weighted : forall c rs cand,
  Forall (fun r => r_confirms r = true) rs ->
  (c_min_peers c <= lenN rs)%N -> candidate_low c cand = false ->
  0 < sumQ (map weight_of rs) -> c_thr_weighted c <= 1 ->
  v_valid (validate_membership c false rs cand) = true.
Proof.
  intros c rs cand Hall H1 H2 H3 H4. rewrite valid_weighted_spec. apply weighted_accept_spec_iff.
  cbv zeta. rewrite (filter_all _ _ Hall). repeat split; auto. left. split; [exact H3|].
  apply Qmult_le_self; [exact H4|apply Qlt_le_weak, H3].
Qed.

(* a rejection always names a reason *)
Theorem C15_rejected_has_reason : forall c attack rs cand,
  v_valid (validate_membership c attack rs cand) = false -> v_fail (validate_membership c attack rs cand) <> [].
Proof. exact rejected_has_reason. Qed.

(* enforcement modes (validate on the cached verdict): Strict returns the verdict and rejects unknown
   nodes, LogOnly lets everything through *)
Theorem C15_enforcement : forall c attack rs cand,
  let v := v_valid (validate_membership c attack rs cand) in
  (c_strict c = true -> validate_cached c (Some v) = v)
  /\ (c_strict c = false -> validate_cached c (Some v) = true)
  /\ validate_cached c None = negb (c_strict c).
Proof. exact enforcement. Qed.

(* validator.rs counters, for every sequence of record_confirmation / record_denial /
   record_no_response: strict majority; >= 2f+1; >= 3f+1 *)
Theorem C15_counters : forall ops f, let s := nv_run ops in
  (nv_is_valid s = true <-> (nv_total s < 2 * nv_conf s)%N)
  /\ (nv_is_valid_bft f s = true <-> (2 * f + 1 <= nv_conf s)%N)
  /\ (nv_sufficient f s = true <-> (3 * f + 1 <= nv_total s)%N)
  /\ (nv_conf s + nv_deny s <= nv_total s)%N /\ nv_total s = lenN ops.
Proof.
  intros ops f. cbv zeta. split; [apply nv_is_valid_iff|]. split; [apply nv_is_valid_bft_iff|].
  split; [apply nv_sufficient_iff|apply nv_inv].
Qed.

Theorem C15_counters_f_liars : forall ops f, let s := nv_run ops in
  nv_total s = (3 * f + 1)%N ->
  ((nv_conf s <= f)%N -> nv_is_valid_bft f s = false)
  /\ ((nv_total s - nv_conf s <= f)%N -> nv_is_valid_bft f s = true /\ nv_is_valid s = true).
Proof.
  intros ops f. cbv zeta. intro T. destruct (nv_inv ops) as (A & _).
  rewrite <- Bool.not_true_iff_false, nv_is_valid_iff, !nv_is_valid_bft_iff. lia.
Qed.

(* non-vacuity *)
Definition ex_resp (conf : bool) (trust_milli : Z) (region : N) (lat_ms : N) : resp :=
  mkResp conf (Some (milli trust_milli)) (Some region) (lat_ms * 1000000)%N.

(* the 5-of-7 example of the test suite is accepted in attack mode, 4-of-7 is not (4/7 < 0.71 <= 5/7) *)
Example C15_example_5_of_7 :
  let seven k := [ex_resp true 900 1 50; ex_resp true 800 2 60; ex_resp true 700 3 70; ex_resp true 600 4 80;
                  ex_resp k 500 5 90; ex_resp false 400 6 100; ex_resp false 350 7 110] in
  v_valid (validate_membership cfg_default true (seven true) (Some (1 # 2))) = true
  /\ v_valid (validate_membership cfg_default true (seven false) (Some (1 # 2))) = false
  /\ v_fail (validate_membership cfg_default true (seven false) (Some (1 # 2))) = [InsufficientConfirmation].
Proof. vm_compute. repeat split; reflexivity. Qed.

(* hypotheses of C15_f_liars are satisfiable: f = 2, seven trusted witnesses, two confirm, plus an
   untrusted one confirming *)
Example C15_example_f_liars :
  let rs := [ex_resp true 900 1 50; ex_resp true 800 2 60; ex_resp false 700 3 70; ex_resp false 600 4 80;
             ex_resp false 500 5 90; ex_resp false 400 6 100; ex_resp false 350 7 110; ex_resp true 100 8 120] in
  lenN (trusted cfg_default rs) = (3 * 2 + 1)%N /\ (confirmations (trusted cfg_default rs) <= 2)%N
  /\ (1 # 3) <= c_thr_bft cfg_default
  /\ v_valid (validate_membership cfg_default true rs None) = false.
Proof. vm_compute. repeat split; try reflexivity; discriminate. Qed.

(* unanimous confirmation with response times that are all different but only 2 ms apart is REJECTED in
   attack mode (collusion flag); 20 ms apart it is accepted *)
Example C15_example_collusion :
  let five gap := map (fun i => ex_resp true 800 i (50 + gap * i)) [1; 2; 3; 4; 5]%N in
  v_valid (validate_membership cfg_default true (five 2%N) None) = false
  /\ v_fail (validate_membership cfg_default true (five 2%N) None) = [SuspectedCollusion]
  /\ v_valid (validate_membership cfg_default true (five 20%N) None) = true
  /\ pairwise_apart collusion_window_ns (map r_latency (five 20%N)).
Proof.
  cbv zeta. split; [vm_compute; reflexivity|]. split; [vm_compute; reflexivity|]. split; [vm_compute; reflexivity|].
  change (pairwise_apart 10000000 [70000000; 90000000; 110000000; 130000000; 150000000]%N).
  unfold pairwise_apart.
  repeat (apply FOP_cons; [repeat (apply Forall_cons; [unfold apart; lia|]); apply Forall_nil|]). apply FOP_nil.
Qed.

(* normal mode: 7 of 10 witnesses of unknown trust confirming is the exact tie 0.7 >= 0.7: accepted;
   6 of 10 is not; a region shortfall only adds a warning *)
Example C15_example_weighted_tie :
  let ten k := map (fun i => mkResp (i <? k)%N None (Some 1%N) (i * 20000000)%N) [0; 1; 2; 3; 4; 5; 6; 7; 8; 9]%N in
  v_valid (validate_membership cfg_default false (ten 7%N) None) = true
  /\ v_fail (validate_membership cfg_default false (ten 7%N) None) = [InsufficientGeographicDiversity]
  /\ v_valid (validate_membership cfg_default false (ten 6%N) None) = false.
Proof. vm_compute. repeat split; reflexivity. Qed.

Example C15_example_counters :
  let s := nv_run [RecConfirm; RecConfirm; RecConfirm; RecConfirm; RecConfirm; RecDeny; RecNoResponse] in
  nv_is_valid s = true /\ nv_is_valid_bft 2 s = true /\ nv_sufficient 2 s = true /\ nv_is_valid_bft 3 s = false.
Proof. vm_compute. repeat split; reflexivity. Qed.
