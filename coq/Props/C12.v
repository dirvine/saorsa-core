(* C12 — each peer sequence number is accepted at most once and only in order.
   The property theorems; the development behind them is Proofs/Counter.v.  Model: Model/Counter.v. *)
From SV Require Import Lib.Base Gen.CounterConsts Model.Counter Proofs.Counter.
Local Open Scope N_scope.

(* The numbers the property text relies on, proved from the constants regenerated
   from src/monotonic_counter.rs. *)
Theorem C12_constants :
  CTR_MAX_SEQUENCE_AGE_SECS = 3600 /\ CTR_FUTURE_SKEW_SECS = 60 /\ 0 < CTR_MAX_SEQUENCE_HISTORY.
Proof. repeat split; reflexivity. Qed.

(* structural fact re-read from the source: validate-and-apply is ONE critical section (the counters
   write lock is taken exactly once, the read lock never) in validate_sequence and in batch_update;
   this is what makes an interleaving of submitters a sequence of [Submit] steps *)
Theorem C12_single_critical_section : CTR_SINGLE_WRITE_SECTION = 1 /\ CTR_BATCH_SINGLE_WRITE_SECTION = 1.
Proof. split; reflexivity. Qed.

(* Valid  <=>  timestamp in the window and seq = last + 1 *)
Theorem C12_accept_exactly_next : forall now c seq h ts,
  Inv c ->
  (validate now c seq h ts = Valid <->
   ts <= now + CTR_FUTURE_SKEW_SECS /\ now - CTR_MAX_SEQUENCE_AGE_SECS <= ts /\ seq = pc_last c + 1).
Proof. exact validate_valid_iff. Qed.

(* For every history (any ops, any clocks, any cleanup points) the numbers accepted
   from peer p are exactly 1,2,...,m in order, m = the counter's final value. *)
Theorem C12_accepted_is_1_2_3 : forall ops p,
  let r := run st_init ops in
  accepted p ops (snd r) = Nseq 1 (N.to_nat (pc_last (fst r p))).
Proof.
  intros ops p. cbn zeta. destruct (run_counts ops st_init p) as [-> Ha].
  cbn [st_init pc_new pc_last]. rewrite N.add_0_l, Nat2N.id. exact Ha.
Qed.

(* at most once over the whole life of the store *)
Theorem C12_at_most_once : forall ops p,
  NoDup (accepted p ops (snd (run st_init ops))).
Proof.
  intros ops p. destruct (run_counts ops st_init p) as [_ ->]. apply Nseq_NoDup.
Qed.

(* every non-Valid verdict leaves the whole store unchanged *)
Theorem C12_no_state_change_on_reject : forall st now p seq h ts,
  validate now (st p) seq h ts <> Valid ->
  fst (step st (Submit now p seq h ts)) = st.
Proof.
  intros st now p seq h ts H. cbn [step fst].
  destruct (validate now (st p) seq h ts); try reflexivity. congruence.
Qed.

(* peers never affect one another: p's verdicts and final counter are those of the
   history with every other peer's submissions deleted *)
Theorem C12_peer_isolation : forall ops p,
  let r := run st_init ops in
  let r' := run st_init (filter (for_peer p) ops) in
  fst r p = fst r' p /\ results_of p ops (snd r) = snd r'.
Proof. intros ops p. exact (run_isolation ops st_init st_init p eq_refl). Qed.

(* a store reloaded from a persisted snapshot [st] (any reachable state) never
   re-accepts a number <= the persisted counter, whatever follows *)
Theorem C12_reload : forall st ops p x,
  InvS st -> In x (accepted p ops (snd (run st ops))) -> pc_last (st p) < x.
Proof.
  intros st ops p x _. destruct (run_counts ops st p) as [_ ->]. rewrite Nseq_In. lia.
Qed.

Theorem C12_reachable_inv : forall ops, InvS (fst (run st_init ops)).
Proof. intro ops. exact (invS_run ops st_init invS_init). Qed.

(* the u64 counter cannot overflow: it counts acceptances *)
Theorem C12_no_overflow : forall ops p,
  pc_last (fst (run st_init ops) p) <= N.of_nat (length ops).
Proof.
  intros ops p. destruct (run_counts ops st_init p) as [-> _].
  pose proof (accepted_length p ops (snd (run st_init ops))). cbn [st_init pc_new pc_last]. lia.
Qed.

(* non-vacuity: a concrete history with replay, gap, stale, future, two peers, cleanup *)
Example C12_example :
  let ops := [Submit 5000 1 1 7 5000; Submit 5000 1 1 7 5000; Submit 5001 2 1 9 5001;
              Submit 5001 1 3 7 5001; Submit 5002 1 2 8 1000; Submit 5002 1 2 8 6000;
              Cleanup 5001; Submit 5003 1 2 8 5003; Submit 5003 1 1 7 5003] in
  snd (run st_init ops) =
    [Some Valid; Some Replay; Some Valid; Some (Gap 2 3); Some TooOld; Some FromFuture;
     None; Some Valid; Some Replay]
  /\ accepted 1 ops (snd (run st_init ops)) = [1; 2].
Proof. vm_compute. split; reflexivity. Qed.
