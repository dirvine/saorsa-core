(* C10 — global trust is a well-formed distribution that moves with reported behaviour.
   Property theorems: lemmas about well-formed states applied to the state a history reaches.  Model: Model/Trust.v instantiated over the
   exact reals (Lib/GenericFieldR.v); lemmas: Proofs/Trust.v.
   [ln1p] (the libm logarithm inside the multi-factor multiplier) is a Section variable whose only
   assumed property, non-negativity on the values it is applied to, stays visible in every statement.
   The clock enters as the decay factor [d] of every [Compute d] (d = decay_rate ^ elapsed hours). *)
From Coq Require Import Reals Lra Lia.
From SV Require Import Lib.Base Lib.GenericField Lib.GenericFieldR Gen.TrustConsts Model.Trust Proofs.Trust.
Local Open Scope R_scope.

(* what the property text relies on, from the constants regenerated from the source (currently:
   success +1, failure +1, data-unavailable +1, corrupted data +2, protocol violation +2):
   corrupted / protocol-violation weigh at least as much as failed / unavailable; an unknown peer
   reads 0; the default response rate lies in [0,1]; both copies of the EMA (async and
   TrustProvider) use the same weights; both 0.9 literals for fresh anchors agree *)
Theorem C10_constants :
  (TRUST_W_FAILED <= TRUST_W_CORRUPTED /\ TRUST_W_FAILED <= TRUST_W_PROTOCOL /\
   TRUST_W_UNAVAILABLE <= TRUST_W_CORRUPTED /\ TRUST_W_UNAVAILABLE <= TRUST_W_PROTOCOL)%N /\
  @of_Q RF TRUST_UNKNOWN_SCORE = 0 /\ 0 <= @of_Q RF TRUST_MF_DEFAULT_RATE <= 1 /\
  TRUST_EMA_KEEP = TRUST_EMA_KEEP_SYNC /\ TRUST_EMA_NEW = TRUST_EMA_NEW_SYNC /\
  TRUST_ANCHOR_INITIAL = TRUST_ANCHOR_INITIAL_ADD.
Proof.
  split; [repeat split; vm_compute; discriminate|]. split; [exact unknown_score_R|].
  rewrite default_rate_R. repeat split; reflexivity || lra.
Qed.

Section C10.
Variable ln1p : N -> R.
Hypothesis ln1p_nonneg : forall x, 0 <= ln1p x.

(* After ANY history (reports, statistics updates of every kind, anchors added/removed, nodes
   removed, earlier computations, queries) every map returned by compute_global_trust gives every
   node a score in [0,1] and the scores sum to 1, or all of them are 0.  (Scores are real numbers
   here, so "finite" is the IEEE side of the trusted base.) *)
Theorem C10_distribution : forall pre ops, Forall decay_ok ops ->
  forall m, In (OMap m) (snd (@run RF ln1p (@init RF pre) ops)) ->
  (forall i x, In (i, x) m -> 0 <= x <= 1) /\
  (Rsum (map snd m) = 1 \/ forall i x, In (i, x) m -> x = 0).
Proof. intros pre ops. apply (run_good ln1p); auto using wf_init. Qed.

(* equal histories give equal scores: the outputs are a function of the history ([run] is a
   function), and the one input that is not part of the history -- the clock, through the decay
   factor -- cancels: replacing every decay factor by 1 changes no output and no later state *)
Theorem C10_deterministic : forall pre ops, Forall decay_pos ops ->
  @run RF ln1p (@init RF pre) (map undecay ops) = @run RF ln1p (@init RF pre) ops.
Proof. intros pre ops. apply (run_undecay ln1p); auto using wf_init. Qed.

(* get_trust returns the last computed score: for every id of a returned map, after any further
   operations other than a new computation, add_pre_trusted(i) (which resets i to 0.9) and
   remove_node(i) (which resets i to 0) *)
Theorem C10_query : forall pre ops1 d ops2 i,
  let st := reach ln1p pre ops1 in
  In i (map fst (@global_trust RF ln1p st d)) -> Forall (keeps i) ops2 ->
  snd (@step RF ln1p (fst (@run RF ln1p (fst (@step RF ln1p st (Compute d))) ops2)) (Query i))
  = @OVal RF (@vget RF (@global_trust RF ln1p st d) i).
Proof. intros. subst st. now rewrite query_answer, keeps_answer, compute_then_query by auto using reach_wf. Qed.

(* ... and 0 for a peer that no report, statistic or anchor set ever mentioned *)
Theorem C10_query_unknown : forall pre ops i, ~ In i pre -> Forall (fun o => ~ mentions i o) ops ->
  snd (@step RF ln1p (reach ln1p pre ops) (Query i)) = @OVal RF 0.
Proof.
  intros pre ops i Hp Hm. now rewrite query_answer, reach_unknown.
Qed.

(* One more success never lowers the peer's score, compared with the same history without it.
   Stated for every peer that is in the node set (it appears in a report or has statistics);
   C10_report_new_peer covers peers nobody has mentioned.  NOT covered: an anchor that appears in no
   report at all -- its first statistic enlarges the node set (n -> n+1), which changes the start
   vector and the iteration cut-offs; see design/C10.md (probed by the harness, class
   c10-anchor-unmentioned). *)
Theorem C10_success_monotone : forall pre ops x d,
  let st := reach ln1p pre ops in
  0 <= d -> In x (@node_set RF st) ->
  @vget RF (@global_trust RF ln1p st d) x
  <= @vget RF (@global_trust RF ln1p (with_stats ln1p st x UCorrect) d) x.
Proof.
  intros. subst st. pose proof (reach_wf ln1p pre ops). apply (GT_mono ln1p); try assumption || reflexivity.
  - now apply with_stats_node_set.
  - intros. now apply with_stats_other.
  - rewrite with_stats_same. apply (factor_mono ln1p); try reflexivity; cbn; lia.
Qed.

(* One more failure of any kind never raises it. *)
Theorem C10_failure_monotone : forall pre ops x u d,
  let st := reach ln1p pre ops in
  0 <= d -> is_failure u -> In x (@node_set RF st) ->
  @vget RF (@global_trust RF ln1p (with_stats ln1p st x u) d) x
  <= @vget RF (@global_trust RF ln1p st d) x.
Proof.
  intros pre ops x u d st Hd Hu Hx. subst st. pose proof (reach_wf ln1p pre ops). apply (GT_mono ln1p); try assumption || reflexivity.
  - apply with_stats_In.
  - symmetry. now apply with_stats_node_set.
  - intros. symmetry. now apply with_stats_other.
  - rewrite with_stats_same. destruct Hu as [ -> | [ -> | [ -> | -> ] ] ]; apply (factor_mono ln1p); try reflexivity; cbn; lia.
Qed.

(* a peer that is not in the map before the report: score 0 before, >= 0 after (any report) *)
Theorem C10_report_new_peer : forall pre ops x u d,
  let st := reach ln1p pre ops in
  0 <= d -> ~ In x (@keys RF st) ->
  @vget RF (@global_trust RF ln1p st d) x = 0 /\
  0 <= @vget RF (@global_trust RF ln1p (with_stats ln1p st x u) d) x.
Proof. intros. subst st. pose proof (reach_wf ln1p pre ops). split; now apply (GT_range ln1p). Qed.

(* corrupted-data and protocol-violation reports cost at least as much as a plain failure
   (or data-unavailable), for EVERY peer, known or not *)
Theorem C10_penalty_order : forall pre ops x u u' d,
  let st := reach ln1p pre ops in
  0 <= d -> (u = UCorrupted \/ u = UProtocol) -> (u' = UFailed \/ u' = UUnavailable) ->
  @vget RF (@global_trust RF ln1p (with_stats ln1p st x u) d) x
  <= @vget RF (@global_trust RF ln1p (with_stats ln1p st x u') d) x.
Proof.
  intros pre ops x u u' d st Hd Hu Hu'. subst st. pose proof (reach_wf ln1p pre ops). apply (GT_mono ln1p); try assumption || reflexivity.
  - apply with_stats_In.
  - now rewrite !with_stats_nodes.
  - intros. now rewrite !with_stats_other.
  - rewrite !with_stats_same. destruct Hu as [ -> | -> ]; destruct Hu' as [ -> | -> ]; apply (factor_mono ln1p); try reflexivity; cbn;
      unfold TRUST_W_FAILED, TRUST_W_UNAVAILABLE, TRUST_W_CORRUPTED, TRUST_W_PROTOCOL; lia.
Qed.

(* the multiplier formula: monotone in the response counters, everything else equal *)
Theorem C10_factor_monotone : forall s s',
  s_up s' = s_up s -> s_sto s' = s_sto s -> s_bw s' = s_bw s -> s_cpu s' = s_cpu s ->
  (s_ok s <= s_ok s')%N -> (s_fail s' <= s_fail s)%N ->
  @factor RF ln1p s <= @factor RF ln1p s'.
Proof. exact (factor_mono ln1p). Qed.

End C10.

(* What the property text says about get_trust is FALSE in one corner, kept visible here:
   add_pre_trusted(i) overwrites a score that was already computed for i with 0.9. *)
Definition C10_query_full : Prop := forall (ln1p : N -> R) pre ops1 d ops2 i,
  let st := reach ln1p pre ops1 in
  In i (map fst (@global_trust RF ln1p st d)) ->
  Forall (fun o => match o with Compute _ => False | RemoveNode j => j <> i | _ => True end) ops2 ->
  snd (@step RF ln1p (fst (@run RF ln1p (fst (@step RF ln1p st (Compute d))) ops2)) (Query i))
  = @OVal RF (@vget RF (@global_trust RF ln1p st d) i).

Theorem C10_query_refuted : ~ C10_query_full.
Proof.
  intro H. destruct (addpre_overwrites (fun _ => 0) (fun _ => Rle_refl 0)) as (Hin & Hq & Hv).
  apply (H (fun _ => 0) [] [UpdStats 1 UCorrect] 1 [@AddPre RF 1]) in Hin; [|repeat constructor].
  rewrite Hq in Hin. injection Hin as E. unfold V in Hv. lra.
Qed.

(* ---- hypotheses are satisfiable / the statements are not vacuous ---- *)
Example C10_example_known_peer :
  let st := reach (fun _ => 0) [] [UpdLocal 1 2 true; UpdLocal 2 1 true] in
  @node_set RF st = [1; 2]%N /\ In 1%N (@node_set RF st) /\ Forall decay_ok [@Compute RF 1] /\
  Forall decay_pos [@Compute RF 1].
Proof.
  cbv zeta. split; [reflexivity|]. split; [now left|]. split; repeat constructor; cbn; lra.
Qed.
