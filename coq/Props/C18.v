(* C18 — stored keys open only with the current password; tampering is detected;
   an interrupted update leaves the old or the new file.
   Property theorems only; the proofs are instantiations of Proofs/KeyStore.v or a few lines.
   Model: Model/KeyStore.v (the manager over a two-file disk with its seed cache and
   password verifier; the store file byte for byte; a crypto-free reference machine).

   External primitives are Section variables:
     kdf  : Argon2id          level -> password -> salt -> key
     enc, dec : ChaCha20-Poly1305 without associated data
     vf   : the keyed hash kept as the cache's password verifier
     pw_ok: the password policy (validate_password)
   Their assumed behaviour -- [ideal_kdf], [ideal_aead], [ideal_vf], defined in
   Model/KeyStore.v -- is an explicit hypothesis of every theorem that needs it. *)
From SV Require Import Lib.Base Gen.KeyStoreConsts Model.KeyStore Proofs.KeyStore.
Local Open Scope N_scope.

(* the numbers the file layout and the model rely on, from the source *)
Theorem C18_constants :
  KS_FORMAT_VERSION = 1 /\ KS_SALT_SIZE = 32 /\ KS_NONCE_SIZE = 12 /\ KS_TAG_FIELD_SIZE = 16 /\
  KS_MASTER_SEED_SIZE = 32 /\
  (* the key is derived from the salt in the file, decryption uses the nonce in the
     file and no associated data, the update is tmp-then-rename *)
  KS_KDF_USES_FILE_SALT = 1 /\ KS_DEC_USES_FILE_NONCE_NO_AAD = 1 /\ KS_TMP_THEN_RENAME = 1.
Proof. repeat split; reflexivity. Qed.

Section Primitives.
  Variable key : Type.
  Variable kdf : N -> N -> bytes -> key.
  Variable enc : key -> bytes -> payload -> bytes.
  Variable dec : key -> bytes -> bytes -> option payload.
  Variable vf : N -> N.
  Variable pw_ok : N -> bool.

  Notation step := (step key kdf enc dec vf pw_ok true).
  Notation run := (run key kdf enc dec vf pw_ok true).
  (* the state every history reaches, and what the history established:
     (current password, level the file was written at, stored seeds) *)
  Notation reached lvl0 ops := (fst (run (st_init lvl0) ops)).
  Notation established lvl0 ops := (fst (arun pw_ok true (a_init lvl0) ops)).

  (* ---- main theorem: for EVERY history of initialize / store / retrieve /
     change_password / clear_cache / reopen / crash-inside-a-call, with any
     passwords, ids, seeds, salts, nonces and clocks, every verdict of the manager
     (file, cache, verifier, real control flow) is the verdict of the reference
     machine, which has no cache, no cryptography and no disk: a seed comes back
     iff the presented password is the one in force (and the manager has the level
     the file was written at), and then it is the seed last stored under that id. *)
  Theorem C18_refines_reference : ideal_kdf kdf -> ideal_aead enc dec -> ideal_vf vf ->
    forall lvl0 ops, snd (run (st_init lvl0) ops) = snd (arun pw_ok true (a_init lvl0) ops).
  Proof. exact (refines_spec pw_ok). Qed.

  (* ... and when every manager of the history has the level the store was created
     with (i.e. outside the recorded finding reopen-other-level), that is the
     property exactly as stated: the level plays no role *)
  Theorem C18_refines_property : ideal_kdf kdf -> ideal_aead enc dec -> ideal_vf vf ->
    forall lvl0 ops, same_level lvl0 ops ->
    snd (run (st_init lvl0) ops) = snd (arun pw_ok false (a_init lvl0) ops).
  Proof.
    intros Hk Ha Hv lvl0 ops Hs. rewrite (refines_spec pw_ok Hk Ha Hv).
    apply (arun_level pw_ok lvl0); [split; [reflexivity|discriminate]|exact Hs].
  Qed.

  (* ---- the current password gets the stored seed, unchanged: after any history,
     same process (cache warm or cold) or fresh manager *)
  Theorem C18_right_password : ideal_kdf kdf -> ideal_aead enc dec -> ideal_vf vf ->
    forall lvl0 ops P L pl id sd,
    a_file (established lvl0 ops) = Some (P, L, pl) -> a_level (established lvl0 ops) = L ->
    pl_get id pl = Some sd ->
    snd (step (reached lvl0 ops) (Retrieve id P)) = RSeed sd.
  Proof.
    intros Hk Ha Hv lvl0 ops P L pl id sd Hf HL Hg.
    rewrite (proj1 (retrieve_sim pw_ok Hv _ _ id P
                      (reachable_sim pw_ok Hk Ha Hv lvl0 ops))).
    unfold astep. cbn [astep_at]. unfold opens. rewrite Hf, HL, !N.eqb_refl. cbn. rewrite Hg. reflexivity.
  Qed.

  (* ---- any other password is refused, after any history: right after a store in
     the same process, after a password change (the previous password included),
     with a warm cache *)
  Theorem C18_wrong_password_fails : ideal_kdf kdf -> ideal_aead enc dec -> ideal_vf vf ->
    forall lvl0 ops id p,
    (forall L pl, a_file (established lvl0 ops) <> Some (p, L, pl)) ->
    snd (step (reached lvl0 ops) (Retrieve id p)) = RErr.
  Proof.
    intros Hk Ha Hv lvl0 ops id p Hn.
    rewrite (proj1 (retrieve_sim pw_ok Hv _ _ id p
                      (reachable_sim pw_ok Hk Ha Hv lvl0 ops))).
    unfold astep. cbn [astep_at]. unfold opens. destruct (a_file _) as [[[P L] pl]|]; [|reflexivity].
    destruct (N.eqb_spec p P) as [->|]; [destruct (Hn L pl eq_refl)|reflexivity].
  Qed.

  (* the same two facts without the reference machine, at the two places the
     property text singles out.  Right after a successful store (any earlier
     history): the password used gets the seed, every other one is refused, in the
     same process and after a restart ... *)
  Theorem C18_after_store : ideal_kdf kdf -> ideal_aead enc dec -> ideal_vf vf ->
    forall lvl0 ops id sd p nonce ts,
    let s := reached lvl0 ops in
    snd (step s (Store id sd p nonce ts)) = ROk ->
    let s1 := fst (step s (Store id sd p nonce ts)) in
    forall q, snd (step s1 (Retrieve id q)) = (if q =? p then RSeed sd else RErr) /\
              snd (step (wipe s1) (Retrieve id q)) = (if q =? p then RSeed sd else RErr).
  Proof.
    intros Hk Ha Hv lvl0 ops id sd p nonce ts. cbv zeta. intros Hok q.
    pose proof (reachable_sim pw_ok Hk Ha Hv lvl0 ops) as H.
    rewrite (proj1 (step_sim pw_ok Hk Ha Hv _ _ _ H)) in Hok.
    rewrite <- (astore_retrieve pw_ok _ _ _ _ _ _ q Hok).
    exact (retrieve_after pw_ok Hk Ha Hv _ _ _ id q H).
  Qed.

  (* ... and right after a successful password change the previous password opens
     nothing, in the same process and after a restart *)
  Theorem C18_previous_password_fails : ideal_kdf kdf -> ideal_aead enc dec -> ideal_vf vf ->
    forall lvl0 ops old new salt nonce ts,
    let s := reached lvl0 ops in
    snd (step s (Change old new salt nonce ts)) = ROk -> old <> new ->
    let s1 := fst (step s (Change old new salt nonce ts)) in
    forall id, snd (step s1 (Retrieve id old)) = RErr /\ snd (step (wipe s1) (Retrieve id old)) = RErr.
  Proof.
    intros Hk Ha Hv lvl0 ops old new salt nonce ts. cbv zeta. intros Hok Hne id.
    pose proof (reachable_sim pw_ok Hk Ha Hv lvl0 ops) as H.
    rewrite (proj1 (step_sim pw_ok Hk Ha Hv _ _ _ H)) in Hok.
    rewrite <- (achange_retrieve pw_ok _ _ _ _ _ _ id Hok Hne).
    exact (retrieve_after pw_ok Hk Ha Hv _ _ _ id old H).
  Qed.

  (* ---- interrupted update: the process dies inside any call [o] at any point
     [pt] of its file update (nothing written / tmp half written / tmp complete /
     renamed) and is restarted.  Whatever is done afterwards ([rest], any history)
     gets exactly the verdicts it would get had the call not been made, or had it
     completed -- never a mixture. *)
  Theorem C18_atomic_update : ideal_kdf kdf -> ideal_aead enc dec -> ideal_vf vf ->
    forall lvl0 ops pt o rest,
    let s := reached lvl0 ops in
    snd (run (fst (step s (Crash pt o))) rest) = snd (run (wipe s) rest) \/
    snd (run (fst (step s (Crash pt o))) rest) = snd (run (wipe (fst (step s o))) rest).
  Proof.
    intros Hk Ha Hv lvl0 ops pt o rest. cbv zeta.
    rewrite (crash_outcome pw_ok Hk Ha Hv _ _ pt o rest
               (reachable_sim pw_ok Hk Ha Hv lvl0 ops)).
    destruct (cp_done pt || negb (writes o)); auto.
  Qed.

  (* which of the two: the old content for every point before the rename ... *)
  Theorem C18_atomic_before_rename_old : ideal_kdf kdf -> ideal_aead enc dec -> ideal_vf vf ->
    forall lvl0 ops pt o rest, cp_done pt = false -> writes o = true ->
    let s := reached lvl0 ops in
    snd (run (fst (step s (Crash pt o))) rest) = snd (run (wipe s) rest).
  Proof.
    intros Hk Ha Hv lvl0 ops pt o rest Hp Hw. cbv zeta.
    rewrite (crash_outcome pw_ok Hk Ha Hv _ _ pt o rest
               (reachable_sim pw_ok Hk Ha Hv lvl0 ops)), Hp, Hw.
    reflexivity.
  Qed.

  (* ... the new content once the rename has happened *)
  Theorem C18_atomic_after_rename_new : ideal_kdf kdf -> ideal_aead enc dec -> ideal_vf vf ->
    forall lvl0 ops o rest,
    let s := reached lvl0 ops in
    snd (run (fst (step s (Crash CDone o))) rest) = snd (run (wipe (fst (step s o))) rest).
  Proof.
    intros Hk Ha Hv lvl0 ops o rest.
    exact (crash_outcome pw_ok Hk Ha Hv _ _ CDone o rest
             (reachable_sim pw_ok Hk Ha Hv lvl0 ops)).
  Qed.

  (* a completed update leaves no temporary file behind (no hypothesis) *)
  Theorem C18_no_stale_tmp : forall fixed s o,
    writes o = true -> snd (KeyStore.step key kdf enc dec vf pw_ok fixed s o) = ROk ->
    d_tmp (fst (KeyStore.step key kdf enc dec vf pw_ok fixed s o)) = None.
  Proof.
    intros fixed s o Hw. destruct o; try discriminate; unfold KeyStore.step; cbn [step_at].
    - destruct (pw_ok p); [|discriminate]. destruct fixed; reflexivity.
    - destruct (load key kdf dec s p); [|discriminate]. destruct (d_main s); [|discriminate].
      destruct fixed; reflexivity.
    - destruct (pw_ok new); [|discriminate]. destruct (load key kdf dec s old); [|discriminate]. reflexivity.
  Qed.

  (* ---- tampering, on the bytes of the store file.
     (1) Whatever bytes open, under whatever password: they parse as a store file of
     the right version whose ciphertext is the genuine encryption of exactly the
     returned content under exactly the presented password, the salt and the nonce
     found in those bytes. *)
  Theorem C18_opens_only_genuine : ideal_aead enc dec ->
    forall lvl bs p pl', load_bytes key kdf dec lvl bs p = Some pl' ->
    exists f', parse_file bs = Some f' /\ f_version f' = KS_FORMAT_VERSION /\
               f_ct f' = enc (kdf lvl p (f_salt f')) (f_nonce f') pl'.
  Proof.
    intros Ha lvl bs p pl' H. unfold load_bytes in H. destruct (parse_file bs) as [f'|]; [|discriminate].
    exists f'. split; [reflexivity|apply (load_file_iff Ha), H].
  Qed.

  (* (2) [f] is the current file, holding [pl] under password P at level L.  For ANY
     bytes [bs] put in its place -- one byte altered, many, truncated, extended --
     whose ciphertext field is the original one or is not a genuine encryption (all
     that can be made without a key): every password gets a refusal, except that the
     right password gets exactly [pl] when salt, nonce and ciphertext are intact.
     Never other key material. *)
  Theorem C18_tamper : ideal_kdf kdf -> ideal_aead enc dec ->
    forall f P L pl lvl bs p,
    f_ct f = enc (kdf L P (f_salt f)) (f_nonce f) pl ->
    (forall f', parse_file bs = Some f' -> f_ct f' = f_ct f \/ forall k n m, f_ct f' <> enc k n m) ->
    load_bytes key kdf dec lvl bs p = None \/
    (load_bytes key kdf dec lvl bs p = Some pl /\ p = P /\ lvl = L /\
     exists f', parse_file bs = Some f' /\ f_salt f' = f_salt f /\ f_nonce f' = f_nonce f /\ f_ct f' = f_ct f).
  Proof.
    intros Hk Ha f P L pl lvl bs p Hc Hun. destruct (load_bytes key kdf dec lvl bs p) as [pl'|] eqn:E; [right|left; reflexivity].
    destruct (C18_opens_only_genuine Ha _ _ _ _ E) as (f' & Hp & _ & Hc').
    destruct (Hun f' Hp) as [Hsame|Hno]; [|destruct (Hno _ _ _ Hc')].
    pose proof Hsame as Hinj. rewrite Hc', Hc in Hinj. apply Ha in Hinj. destruct Hinj as (Hkey & Hn & ->).
    apply Hk in Hkey. destruct Hkey as (-> & -> & Hs). eauto 8.
  Qed.

  (* (3) the header fields outside the AEAD (argon2_config, timestamps,
     encrypted_size, the auth_tag field) and trailing bytes are NOT detected, and
     are harmless: the answer is the one for the undamaged file *)
  Theorem C18_unauthenticated_fields_harmless : forall lvl f f' p,
    f_version f' = f_version f -> f_salt f' = f_salt f -> f_nonce f' = f_nonce f -> f_ct f' = f_ct f ->
    load_file key kdf dec lvl f' p = load_file key kdf dec lvl f p.
  Proof. intros lvl f f' p H1 H2 H3 H4. unfold load_file. rewrite H1, H2, H3, H4. reflexivity. Qed.

  (* (4) the undamaged bytes open with the right password (even followed by garbage) *)
  Theorem C18_undamaged_opens : ideal_aead enc dec -> forall f P L pl extra, shape f ->
    f_version f = KS_FORMAT_VERSION -> f_ct f = enc (kdf L P (f_salt f)) (f_nonce f) pl ->
    load_bytes key kdf dec L (encode_file f ++ extra) P = Some pl.
  Proof.
    intros Ha f P L pl extra Hs Hv Hc. unfold load_bytes. rewrite parse_encode by exact Hs.
    apply (load_file_iff Ha). auto.
  Qed.
End Primitives.

(* the byte layout: parsing what was written gives back every field *)
Theorem C18_parse_encode : forall f extra, shape f -> parse_file (encode_file f ++ extra) = Some f.
Proof. exact parse_encode. Qed.

(* ---- the code before the repairs does NOT have the property, with primitives
   that satisfy every ideal hypothesis: F18a (cache served without looking at the
   password: wrong password right after a store gets the seed) and F18b (initialize
   on an existing store leaves the cache: the password of the destroyed store still
   gets its seed). *)
Theorem C18_cache_refuted :
  ideal_kdf toy_kdf /\ ideal_aead toy_enc toy_dec /\ ideal_vf toy_vf /\
  (let ops := [Init 1 [1] [1] 0; Store 1 7 1 [2] 0; Retrieve 1 2] in
   snd (run bytes toy_kdf toy_enc toy_dec toy_vf (fun _ => true) false (st_init 0) ops) = [ROk; ROk; RSeed 7] /\
   snd (arun (fun _ => true) true (a_init 0) ops) = [ROk; ROk; RErr]) /\
  (let ops := [Init 1 [1] [1] 0; Store 1 7 1 [2] 0; Change 1 2 [2] [3] 0; Retrieve 1 2; Retrieve 1 1] in
   snd (run bytes toy_kdf toy_enc toy_dec toy_vf (fun _ => true) false (st_init 0) ops) = [ROk; ROk; ROk; RSeed 7; RSeed 7] /\
   snd (arun (fun _ => true) true (a_init 0) ops) = [ROk; ROk; ROk; RSeed 7; RErr]) /\
  (let ops := [Init 1 [1] [1] 0; Store 1 7 1 [2] 0; Init 2 [2] [3] 0; Retrieve 1 1] in
   snd (run bytes toy_kdf toy_enc toy_dec toy_vf (fun _ => true) false (st_init 0) ops) = [ROk; ROk; ROk; RSeed 7] /\
   snd (arun (fun _ => true) true (a_init 0) ops) = [ROk; ROk; ROk; RErr]).
Proof.
  split; [exact toy_kdf_ideal|]. split; [exact toy_aead_ideal|]. split; [exact toy_vf_ideal|].
  vm_compute. repeat split; reflexivity.
Qed.

(* ---- recorded finding reopen-other-level: the Argon2 parameters in the header are
   written but not used when the file is read, so a manager created with another
   SecurityLevel refuses the right password (code and model agree; the property as
   stated says the seed comes back) *)
Theorem C18_other_level_refuted :
  let ops := [Init 1 [1] [1] 0; Store 1 7 1 [2] 0; Reopen 1; Retrieve 1 1] in
  snd (run bytes toy_kdf toy_enc toy_dec toy_vf (fun _ => true) true (st_init 0) ops) = [ROk; ROk; ROk; RErr] /\
  snd (arun (fun _ => true) false (a_init 0) ops) = [ROk; ROk; ROk; RSeed 7] /\
  ~ same_level 0 ops.
Proof.
  split; [vm_compute; reflexivity|]. split; [vm_compute; reflexivity|].
  intro H. inversion H as [|? ? _ G1]. inversion G1 as [|? ? _ G2]. inversion G2 as [|? ? G3 _]. cbn in G3. discriminate.
Qed.

(* ---- non-vacuity: the hypotheses are satisfiable and the definitions compute *)
Example C18_toy_ideal : ideal_kdf toy_kdf /\ ideal_aead toy_enc toy_dec /\ ideal_vf toy_vf.
Proof. exact (conj toy_kdf_ideal (conj toy_aead_ideal toy_vf_ideal)). Qed.

(* the repaired machine on the three histories of C18_cache_refuted, a crash at
   every point of a password change, and a policy that refuses password 9 *)
Example C18_example :
  let go := fun ops => snd (run bytes toy_kdf toy_enc toy_dec toy_vf (policy [9]) true (st_init 0) ops) in
  go [Init 1 [1] [1] 0; Store 1 7 1 [2] 0; Retrieve 1 2; Retrieve 1 1] = [ROk; ROk; RErr; RSeed 7] /\
  go [Init 1 [1] [1] 0; Store 1 7 1 [2] 0; Change 1 2 [2] [3] 0; Retrieve 1 2; Retrieve 1 1; Retrieve 1 2]
     = [ROk; ROk; ROk; RSeed 7; RErr; RSeed 7] /\
  go [Init 1 [1] [1] 0; Store 1 7 1 [2] 0; Init 2 [2] [3] 0; Retrieve 1 1; Retrieve 1 2] = [ROk; ROk; ROk; RErr; RErr] /\
  go [Init 9 [1] [1] 0; Init 1 [1] [1] 0; Store 1 7 1 [2] 0; Change 1 9 [2] [3] 0; Clear; Retrieve 1 1]
     = [RErr; ROk; ROk; RErr; ROk; RSeed 7] /\
  go [Init 1 [1] [1] 0; Store 1 7 1 [2] 0; Crash CTmp (Change 1 2 [2] [3] 0); Retrieve 1 1; Retrieve 1 2]
     = [ROk; ROk; ROk; RSeed 7; RErr] /\
  go [Init 1 [1] [1] 0; Store 1 7 1 [2] 0; Crash CDone (Change 1 2 [2] [3] 0); Retrieve 1 1; Retrieve 1 2]
     = [ROk; ROk; ROk; RErr; RSeed 7] /\
  go [Init 1 [1] [1] 0; Crash CTorn (Store 1 7 1 [2] 0); Retrieve 1 1; Store 1 8 1 [3] 0; Retrieve 1 1]
     = [ROk; ROk; RErr; ROk; RSeed 8].
Proof. vm_compute. repeat split; reflexivity. Qed.

(* a shaped file written with the toy primitives: it parses back, opens with the
   right password only, a damaged byte is refused; and the hypothesis of C18_tamper
   is satisfiable for a damaged ciphertext (here: the empty one is no encryption) *)
Example C18_example_bytes :
  let f := seal bytes toy_kdf toy_enc 0 1 (repeat 5 32) (repeat 6 12) 1700000000 [(1, 7)] in
  shape f /\
  load_bytes bytes toy_kdf toy_dec 0 (encode_file f) 1 = Some [(1, 7)] /\
  load_bytes bytes toy_kdf toy_dec 0 (encode_file f) 2 = None /\
  load_bytes bytes toy_kdf toy_dec 0 (apply_tamper (TSet 40 99) (encode_file f)) 1 = None /\
  (forall k n m, ([] : bytes) <> toy_enc k n m).
Proof.
  cbv zeta. split.
  { unfold shape. split; [vm_compute; reflexivity|]. split.
    { exists 4096, 1, 1, 32. vm_compute. repeat split; reflexivity. }
    repeat split; vm_compute; reflexivity. }
  split; [vm_compute; reflexivity|]. split; [vm_compute; reflexivity|]. split; [vm_compute; reflexivity|].
  intros k n m H. unfold toy_enc, toy_pre in H. cbn [app] in H. discriminate H.
Qed.
