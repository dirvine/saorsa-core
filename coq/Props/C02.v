(* C02 - routing-table closest-node answers are exact, duplicate-free and capped.
   The property theorems; each is an instance of, or is assembled here from, the lemmas of
   Proofs/Routing.v (table invariant, bucket walk, "the n nearest"), Lib/Xor.v and Lib/Isort.v.
   Model: Model/Routing.v (mirrors src/dht/core_engine.rs after the fixes of F02a/b/c). *)
From Coq Require Import Sorting.Sorted.
From SV Require Import Lib.Base Lib.Xor Lib.Isort Gen.RoutingConsts Model.Routing Proofs.Routing.
Local Open Scope N_scope.

(* The numbers the property text states, from the constants regenerated from the source
   (each tied to its use site by the translator): K = 8 per bucket, 256 buckets, FindNode
   cap 20, FindValue K = 8, manager-level reply cap 8 <= 20. *)
Theorem C02_constants :
  RT_BUCKET_K = 8 /\ RT_BUCKET_COUNT = 256 /\ RT_MAX_FIND_NODE_COUNT = 20 /\ RT_FIND_VALUE_COUNT = 8 /\
  RT_DHT_CLOSEST_NODES_COUNT = 8 /\ RT_DHT_CLOSEST_NODES_COUNT <= RT_MAX_FIND_NODE_COUNT /\
  1 <= RT_CANDIDATE_EXPANSION_FACTOR.
Proof.
  repeat split; try reflexivity; [unfold RT_DHT_CLOSEST_NODES_COUNT, RT_MAX_FIND_NODE_COUNT; lia|exact expansion_ge_1].
Qed.

(* For EVERY history of join / add (whatever the admission gates say) / failure / evict
   from the empty table - repeated ids, the local id and absent ids included - the table
   lists each id at most once, never the local id, every node in the bucket of the first
   bit in which it differs from the local id, and at most 8 nodes per bucket. *)
Theorem C02_table_inv : forall local ops, key_ok local -> Forall op_ok ops ->
  let t := fst (run (start local) ops) in
  t_local t = local /\
  NoDup (ids (all_nodes t)) /\
  ~ In local (ids (all_nodes t)) /\
  (forall i x, In x (t_buckets t i) -> In x (all_nodes t) /\ bucket_index local (n_id x) = i /\ key_ok (n_id x)) /\
  (forall i, N.of_nat (length (t_buckets t i)) <= RT_BUCKET_K).
Proof.
  intros local ops Kl F. cbn zeta.
  destruct (run_inv ops (start local) (inv_empty local _ Kl) F) as [I [Ec El]].
  cbn [start empty_table t_cap t_local] in Ec, El.
  split; [exact El|]. split; [apply inv_all_nodup, I|].
  split; [rewrite <- El at 1; apply inv_local_absent, I|]. split.
  - intros i x Ix. destruct (in_bucket _ i x I Ix) as [Ia Eb]. rewrite El in Eb.
    split; [exact Ia|]. split; [exact Eb|]. apply (in_all_nodes_ok _ x I Ia).
  - intro i. rewrite <- Ec. apply I.
Qed.

(* Refinement: the bucket walk with its early exit (find_closest_nodes) returns exactly the
   first [count] entries of the whole table sorted by XOR distance to the key - for every
   reachable table, every 256-bit key and every count. *)
Theorem C02_closest_exact : forall local ops key count, key_ok local -> Forall op_ok ops -> key_ok key ->
  let t := fst (run (start local) ops) in
  closest t key count = firstn (N.to_nat count) (sort_by_dist key (all_nodes t)).
Proof. intros local ops key count Kl F Kk. exact (closest_exact _ key count (reach_inv local ops Kl F) Kk). Qed.

(* ... which means: min(count, size) entries, strictly ascending distance (so each peer
   once), never the local node, all of them table entries, nothing nearer left out. *)
Theorem C02_closest_meaning : forall local ops key count, key_ok local -> Forall op_ok ops -> key_ok key ->
  let t := fst (run (start local) ops) in
  let res := closest t key count in
  N.of_nat (length res) = N.min count (size t) /\
  StronglySorted (dlt key) res /\
  NoDup (ids res) /\
  ~ In (t_local t) (ids res) /\
  (forall x, In x res -> In x (all_nodes t)) /\
  (forall x y, In x res -> In y (all_nodes t) -> ~ In y res -> dlt key x y).
Proof. intros local ops key count Kl F Kk. exact (closest_meaning _ key count (reach_inv local ops Kl F) Kk). Qed.

(* ... and that answer is unique: any list with these properties IS the answer, so the
   statement does not depend on the sorting algorithm or the bucket traversal order. *)
Theorem C02_answer_unique : forall local ops key count res, key_ok local -> Forall op_ok ops -> key_ok key ->
  let t := fst (run (start local) ops) in
  StronglySorted (dlt key) res ->
  (forall x, In x res -> In x (all_nodes t)) ->
  N.of_nat (length res) = N.min count (size t) ->
  (forall x y, In x res -> In y (all_nodes t) -> ~ In y res -> dlt key x y) ->
  res = closest t key count.
Proof.
  intros local ops key count res Kl F Kk t S Sub Len Far.
  pose proof (reach_inv local ops Kl F) as I. rewrite (closest_exact t key count I Kk).
  apply (nearest_unique key (all_nodes t) (N.to_nat count)); [|apply nearest_firstn, inv_all_nodup, I].
  unfold size in Len. repeat split; try assumption. lia.
Qed.

Theorem C02_sort_unique : forall key l s, NoDup (ids l) ->
  StronglySorted (dlt key) s -> (forall x, In x s <-> In x l) -> s = sort_by_dist key l.
Proof.
  intros key l s ND S E. apply (sorted_unique key); [exact S|apply sort_sorted, ND|].
  intro x. rewrite sort_in. apply E.
Qed.

(* FindNode / FindValue requests: same rule with the count capped at 20, resp. K = 8 ... *)
Theorem C02_request_exact : forall local ops key count, key_ok local -> Forall op_ok ops -> key_ok key ->
  let t := fst (run (start local) ops) in
  handle_find_node t key count = closest_spec t key (N.min count RT_MAX_FIND_NODE_COUNT) /\
  handle_find_value t key = closest_spec t key RT_FIND_VALUE_COUNT.
Proof.
  intros local ops key count Kl F Kk. unfold handle_find_node, handle_find_value.
  split; apply closest_exact; try assumption; apply reach_inv; assumption.
Qed.

(* ... and for EVERY table and request the reply never exceeds the protocol cap. *)
Theorem C02_request_capped : forall t key count,
  N.of_nat (length (handle_find_node t key count)) <= 20 /\
  N.of_nat (length (handle_find_value t key)) <= 8.
Proof.
  intros. unfold handle_find_node, handle_find_value, closest. rewrite !takeN_firstn, !firstn_length.
  unfold RT_MAX_FIND_NODE_COUNT, RT_FIND_VALUE_COUNT. lia.
Qed.

(* Manager-level reply rule (DhtNetworkManager::find_closest_nodes_local + filter_response_nodes):
   over everything the node knows (connected peers, then table entries) there is one entry
   per DHT key, the connected one winning; the reply is the nearest [cap] of those that are
   not the node itself, with the requester dropped after the cut: ascending, duplicate-free,
   at most cap, at most one slot short (and only when the requester was among the nearest
   cap), and nobody that may be named and is nearer than a named peer is left out.  The
   replies of real nodes are evaluated against [reply_nodes] by harness c02net. *)
Theorem C02_reply : forall is_self requester key cap connected from_table,
  let known := dedupe_ids (connected ++ from_table) in
  let others := filter (fun x => negb (is_self x)) known in
  let top := firstn (N.to_nat cap) (sort_by_dist key others) in
  let elig := filter (eligible is_self requester) known in
  let res := reply_nodes is_self requester key cap connected from_table in
  NoDup (ids known) /\
  (forall x, In x (connected ++ from_table) -> exists y, In y known /\ n_id y = n_id x) /\
  (forall x, In x connected -> NoDup (ids connected) -> In x known) /\
  res = filter (fun x => negb (n_id x =? requester)) top /\
  N.of_nat (length res) <= cap /\
  N.min cap (N.of_nat (length others)) <= N.of_nat (length res) + 1 /\
  (~ In requester (ids top) -> res = top /\ N.of_nat (length res) = N.min cap (N.of_nat (length others))) /\
  StronglySorted (dlt key) res /\
  NoDup (ids res) /\
  (forall x, In x res -> In x (connected ++ from_table) /\ is_self x = false /\ n_id x <> requester) /\
  (forall x y, In x res -> In y elig -> ~ In y res -> dlt key x y).
Proof.
  intros is_self requester key cap connected from_table known others top elig res.
  assert (NO : NoDup (ids others)) by apply nodup_ids_filter, dedupe_ids_nodup.
  destruct (nearest_firstn key others (N.to_nat cap) NO : nearest key others _ top) as [St [Sub [Len Far]]].
  assert (NT : NoDup (ids top)) by apply nodup_ids_firstn, sort_ids_nodup, NO.
  assert (E : res = filter (fun x => negb (n_id x =? requester)) top) by apply reply_nodes_eq.
  split; [apply dedupe_ids_nodup|]. split; [apply dedupe_ids_first|].
  split; [intros x Ix ND; apply dedupe_ids_head; assumption|].
  split; [exact E|]. rewrite E.
  pose proof (filter_length_le (fun x => negb (n_id x =? requester)) top).
  pose proof (filter_one_id_length requester top NT).
  split; [lia|]. split; [lia|].
  split; [intro H1; rewrite (filter_absent_id requester top H1); split; [reflexivity|lia]|].
  split; [apply ss_filter, St|]. split; [apply nodup_ids_filter, NT|]. split.
  - intros x H1. apply filter_In in H1. destruct H1 as [H1 R]. apply Sub, filter_In in H1.
    destruct H1 as [H1 Es]. apply dedupe_ids_sub in H1.
    rewrite negb_true_iff in Es, R. rewrite N.eqb_neq in R. tauto.
  - intros x y Hx Hy Ny. apply filter_In in Hx. apply filter_In in Hy. destruct Hy as [Hy Ey].
    apply andb_true_iff in Ey. apply Far; [tauto|apply filter_In; tauto|].
    intro G. apply Ny, filter_In. tauto.
Qed.

(* What the evaluated check of a reply seen on the wire establishes: every named peer is known to
   the replier afterwards, and the reply IS [reply_nodes] of a knowledge that contains everything
   the replier knew before the lookup and otherwise only peers it names (or the requester). *)
Theorem C02_reply_check : forall selfks req key cap before after reply,
  check_rcase (selfks, req, key, cap, before, after, reply) = true ->
  (forall x, In x reply -> In x after) /\
  exists k, (k = reply ++ before \/ (k = req :: reply ++ before /\ In req after)) /\
            reply = reply_nodes (is_self_in selfks) (n_id req) key cap k [].
Proof.
  intros selfks req key cap before after reply H. unfold check_rcase in H.
  apply andb_true_iff in H. destruct H as [Hs H]. split.
  - intros x Hx. unfold subset_nodes in Hs. rewrite forallb_forall in Hs. apply existsb_node_in, Hs, Hx.
  - apply orb_true_iff in H. destruct H as [H|H].
    + exists (reply ++ before). split; [left; reflexivity|]. apply nodes_eqb_eq. exact H.
    + apply andb_true_iff in H. destruct H as [Hr H]. exists (req :: reply ++ before). split.
      * right. split; [reflexivity|]. apply existsb_node_in, Hr.
      * apply nodes_eqb_eq. exact H.
Qed.

(* The tie between the byte-level Rust code and the numbers of the model. *)
(* [u8;32]::cmp on distances = comparison of the big-endian integers *)
Theorem C02_be_compare : forall a b, bytes_ok a -> bytes_ok b -> length a = length b ->
  of_be a ?= of_be b = lex_compare a b.
Proof. exact be_compare. Qed.
(* the bit loop of get_bucket_index = 255 - log2 (local xor id) *)
Theorem C02_bucket_index_loop : forall l a, key_ok l -> key_ok a -> bucket_index_loop l a = bucket_index l a.
Proof. exact bucket_index_loop_eq. Qed.
(* XOR distance to a fixed key is injective: distinct peers never tie *)
Theorem C02_dist_injective : forall k a b, dist k a = dist k b -> a = b.
Proof. exact dist_inj. Qed.

(* The defects of the unrepaired source (DESIGN.md F02a, F02b, F02c), on a faithful model of
   the OLD walk / insertion; witnesses by computation. *)
Definition w_b0 (x : N) : N := 2 ^ 255 + x.   (* bucket 0 of local id 0 *)
Definition w_b2 (x : N) : N := 2 ^ 253 + x.   (* bucket 2 *)
Definition w_key3 : N := 2 ^ 252 + 5.         (* target bucket 3 *)
Definition w_t1 : table := fst (run (start 0) [Join [nd (w_b0 1) 1; nd (w_b0 2) 2; nd (w_b0 3) 3]]).
Definition w_t2 : table :=
  fst (run (start 0) [Join [nd (w_b2 1) 1; nd (w_b2 2) 2; nd (w_b2 3) 3; nd (w_b2 4) 4; nd (w_b2 5) 5;
                            nd (w_b2 6) 6; nd (w_b2 7) 7; nd (w_b2 8) 8; nd (2 ^ 250 + 1) 9]]).

(* F02a: three peers in bucket 0, target in bucket 3: the old walk answers 8 entries *)
Theorem C02_walk_refuted_duplicates :
  table_ok w_t1 = true /\ size w_t1 = 3 /\
  N.of_nat (length (closest_old w_t1 w_key3 8)) = 8 /\ nodup_N (ids (closest_old w_t1 w_key3 8)) = false /\
  closest w_t1 w_key3 8 = closest_spec w_t1 w_key3 8.
Proof.
  (* the witnesses by one evaluation; the repaired walk by the refinement theorem at this table *)
  do 3 apply -> and_assoc. split; [vm_compute; repeat split; reflexivity|].
  apply closest_exact; [apply reach_inv; [reflexivity|repeat constructor]|reflexivity].
Qed.

(* F02b: full bucket 2, one peer in bucket 5, target in bucket 3, count 4: the old walk
   stops at 8 candidates and never sees the nearest peer *)
Theorem C02_walk_refuted_early_exit :
  table_ok w_t2 = true /\
  map n_pl (closest_old w_t2 w_key3 4) = [5; 4; 7; 6] /\
  map n_pl (closest_spec w_t2 w_key3 4) = [9; 5; 4; 7] /\
  closest w_t2 w_key3 4 = closest_spec w_t2 w_key3 4.
Proof.
  do 2 apply -> and_assoc. split; [vm_compute; repeat split; reflexivity|].
  apply closest_exact; [apply reach_inv; [reflexivity|repeat constructor]|reflexivity].
Qed.

(* F02c: the old insertion lists a peer twice and lists the local id *)
Theorem C02_insert_refuted :
  let t1 := fst (table_add_old (start 0) (nd (w_b0 1) 1)) in
  let t2 := fst (table_add_old t1 (nd (w_b0 1) 2)) in
  let t3 := fst (table_add_old t2 (nd 0 3)) in
  ids (all_nodes t3) = [w_b0 1; w_b0 1; 0] /\ table_ok t3 = false.
Proof. vm_compute. split; reflexivity. Qed.

(* Non-vacuity: the hypotheses are satisfiable and the operations do what they say. *)
Example C02_example_history :
  let a := nd (w_b0 1) 1 in let b := nd (w_b0 2) 2 in let c := nd (w_b2 7) 3 in
  let ops := [Join [a; b]; Add c true; Add (nd (w_b0 1) 9) true (* listed: refresh, keeps payload 1 *);
              Add (nd 0 4) true (* the local id *); Add (nd (w_b2 8) 5) false (* gates refuse *);
              Join [nd (w_b0 4) 6; nd 0 7; nd (w_b0 5) 8] (* stops at the local id *);
              Fail (w_b0 2); Evict (w_b0 77) (* absent *); Find w_key3 2; ReqFindNode w_key3 1000; ReqFindValue 0] in
  key_ok 0 /\ forallb op_okb ops = true /\
  snd (run (start 0) ops) =
    [OOk; OOk; OOk; OErr; OErr; OErr; OOk; OOk;
     ONodes [c; nd (w_b0 4) 6]; ONodes [c; nd (w_b0 4) 6; a]; ONodes [c; a; nd (w_b0 4) 6]].
Proof. vm_compute. repeat split; reflexivity. Qed.

(* a full bucket refuses the ninth peer, keeps the eight *)
Example C02_example_full_bucket :
  let ops := map (fun i => Add (nd (w_b0 i) i) true) [1; 2; 3; 4; 5; 6; 7; 8; 9] in
  snd (run (start 0) ops) = [OOk; OOk; OOk; OOk; OOk; OOk; OOk; OOk; OErr] /\
  size (fst (run (start 0) ops)) = 8.
Proof. vm_compute. split; reflexivity. Qed.

Example C02_example_reply :
  (* peer with DHT key 9 is known twice (connected under payload 100, table under 200); requester has key 5 *)
  reply_nodes (fun x => n_id x =? 1) 5 8 2 [nd 9 100; nd 5 101] [nd 9 200; nd 12 201; nd 1 202; nd 10 203]
  = [nd 9 100; nd 10 203] /\
  (* the requester (key 10) is among the nearest two: it is dropped after the cut, the reply is one short *)
  reply_nodes (fun x => n_id x =? 1) 10 8 2 [nd 9 100; nd 5 101] [nd 9 200; nd 12 201; nd 1 202; nd 10 203]
  = [nd 9 100].
Proof. vm_compute. split; reflexivity. Qed.

(* the check of a wire reply: accepted although the replier learnt of peer 12 only during the lookup,
   accepted one short when the requester took a slot, refused when a known nearer peer is left out *)
Example C02_example_reply_check :
  check_rcase ([1], nd 5 101, 8, 2, [nd 9 100; nd 5 101], [nd 9 100; nd 5 101; nd 12 201], [nd 9 100; nd 12 201]) = true /\
  check_rcase ([1], nd 10 203, 8, 2, [nd 9 100; nd 12 201], [nd 9 100; nd 12 201; nd 10 203], [nd 9 100]) = true /\
  prop_rcase ([1], nd 10 203, 8, 2, [nd 9 100; nd 12 201], [nd 9 100; nd 12 201; nd 10 203], [nd 9 100]) = true /\
  check_rcase ([1], nd 5 101, 8, 2, [nd 9 100; nd 10 203; nd 12 201], [nd 9 100; nd 10 203; nd 12 201], [nd 9 100; nd 12 201]) = false /\
  prop_rcase ([1], nd 5 101, 8, 2, [nd 9 100; nd 10 203; nd 12 201], [nd 9 100; nd 10 203; nd 12 201], [nd 9 100; nd 12 201]) = false.
Proof. vm_compute. repeat split; reflexivity. Qed.
