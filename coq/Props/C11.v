(* C11 — unvouched identities gain no meaningful trust; anchors keep a floor.
   Property theorems: lemmas about well-formed states applied to the state a history reaches.  Model: Model/Trust.v instantiated over the
   exact reals (Lib/GenericFieldR.v); lemmas: Proofs/Trust.v.
   [ln1p] (the libm logarithm inside the multi-factor multiplier) is a Section variable whose only
   assumed property, non-negativity on the values it is applied to, stays visible in every statement. *)
From Coq Require Import Reals Lra.
From SV Require Import Lib.Base Lib.GenericField Lib.GenericFieldR Gen.TrustConsts Model.Trust Proofs.Trust Proofs.TrustStar.
Local Open Scope R_scope.

(* the numbers the property text relies on, proved from the constants regenerated from
   src/adaptive/trust.rs: teleport weight 0.4, threshold 1e-4, at most 50 rounds,
   7 rounds when n > 100, 4 rounds when n > 500, convergence exit only from the 4th round on *)
Theorem C11_constants :
  @alpha RF = 4 / 10 /\ @conv_thr RF = 1 / 10000 /\
  TRUST_MAX_ITERATIONS = 50%N /\ (TRUST_CUT1_N = 100 /\ TRUST_CUT1_ITER + 2 = 7)%N /\
  (TRUST_CUT2_N = 500 /\ TRUST_CUT2_ITER + 2 = 4)%N /\
  (TRUST_MIN_ITERATIONS = 4 /\ TRUST_MIN_ITER_OFFSET = 1)%N.
Proof. rewrite alpha_R, conv_thr_R. repeat split; try reflexivity; lra. Qed.

Section C11.
Variable ln1p : N -> R.
Hypothesis ln1p_nonneg : forall x, 0 <= ln1p x.

(* ONE repaired round, for every distribution vector [v] over the keys [ks] of any graph with at
   least one anchor: a set with no incoming statement from outside keeps at most (1 - alpha) of its
   mass (what its dangling members hold goes to the anchors, the total stays 1). *)
Theorem C11_closed_set_decay_round :
  forall (nodes ks pre : list N) (es : list (edge RF)),
  nodes <> [] -> NoDup ks -> incl nodes ks -> NoDup pre -> incl pre ks -> (pre = [] -> ks = nodes) ->
  (forall e, In e es -> 0 < e_val e) ->
  (forall e, In e es -> In (e_from e) ks /\ In (e_to e) ks) ->
  forall Sy : list N,
  NoDup Sy -> incl Sy nodes -> (forall i, In i Sy -> ~ In i pre) -> pre <> [] ->
  (forall e, In e es -> In (e_to e) Sy -> In (e_from e) Sy) ->
  forall v : vec RF, dist ks v ->
  massR Sy (fst (@round RF nodes ks pre es (@wedges RF es) v)) <= (1 - @alpha RF) * massR Sy v.
Proof. intros. apply round_mass_decay; try assumption. now constructor. Qed.

(* For every history: after the computation the set holds at most (3/5)^rounds of its population share. *)
Theorem C11_closed_set_decay : forall pre ops d Sy,
  let st := reach ln1p pre ops in
  0 <= d -> st_pre st <> [] -> equal_stats ln1p st -> unvouched st Sy ->
  @mass RF (@global_trust RF ln1p st d) Sy <= (3 / 5) ^ N.to_nat (@rounds_run RF st) * pop_share st Sy.
Proof. intros. subst st. apply (closed_mass ln1p); auto using reach_wf. Qed.

(* every exit of the repaired loop is taken after at least 4 rounds *)
Theorem C11_at_least_four_rounds : forall pre ops,
  let st := reach ln1p pre ops in
  @node_set RF st <> [] -> st_pre st <> [] -> (4 <= @rounds_run RF st)%N.
Proof. intros. apply rounds_ge_4. Qed.

(* THE PROPERTY AS WRITTEN, at full strength: for every history, every network size, every anchor
   count >= 1 and every unvouched set of any size and internal rating pattern, the set ends with
   aggregate global trust no greater than one seventh of its share of the population. *)
Theorem C11_sybil_seventh : forall pre ops d Sy,
  let st := reach ln1p pre ops in
  0 <= d -> st_pre st <> [] -> equal_stats ln1p st -> unvouched st Sy ->
  @mass RF (@global_trust RF ln1p st d) Sy <= pop_share st Sy / 7.
Proof. intros. subst st. apply (closed_mass ln1p); auto using reach_wf. Qed.

(* below 0.1 % of the total in networks of up to 100 nodes, whichever exit the loop takes *)
Theorem C11_small_net : forall pre ops d Sy,
  let st := reach ln1p pre ops in
  0 <= d -> st_pre st <> [] -> equal_stats ln1p st -> unvouched st Sy ->
  (length (@node_set RF st) <= 100)%nat ->
  @mass RF (@global_trust RF ln1p st d) Sy < 1 / 1000.
Proof. intros. subst st. apply (closed_mass ln1p); auto using reach_wf. Qed.

(* every anchor keeps alpha / |anchors| of the total; NO hypothesis about anybody's statements *)
Theorem C11_anchor_floor : forall pre ops d a,
  let st := reach ln1p pre ops in
  0 <= d -> equal_stats ln1p st -> In a (st_pre st) ->
  @alpha RF / INR (length (st_pre st)) * @vsum RF (@global_trust RF ln1p st d)
    <= @vget RF (@global_trust RF ln1p st d) a.
Proof. intros. subst st. apply (anchor_floor ln1p); auto using reach_wf. Qed.

End C11.

(* Why the minimum of 4 rounds is needed: for a faithful copy of the loop WITHOUT it ([iterate_old] in
   Proofs/TrustStar.v: convergence exit allowed from the first round on) the one-seventh bound is
   false -- anchor 2, identity 1 rating itself, 4998 honest nodes without statements: the old loop
   leaves after two rounds and identity 1 keeps 0.36/5000 > (1/5000)/7. *)
Theorem C11_old_exit_rule_refuted : ~ old_loop_seventh_full.
Proof. exact old_loop_seventh_refuted. Qed.

(* ---- the hypotheses are satisfiable: an anchor vouching for an honest node, and a self-rating
   identity nobody vouches for; nobody has statistics ---- *)
Definition ex_ops : list (op RF) := [UpdLocal 1 2 true; UpdLocal 3 3 true].

Example C11_example_hypotheses :
  let st := reach (fun _ => 0) [1%N] ex_ops in
  @node_set RF st = [1; 2; 3]%N /\ st_pre st = [1%N] /\ st_pre st <> [] /\
  equal_stats (fun _ => 0) st /\ unvouched st [3%N] /\ (length (@node_set RF st) <= 100)%nat.
Proof.
  assert (En : @node_set RF (reach (fun _ => 0) [1%N] ex_ops) = [1; 2; 3]%N) by reflexivity.
  assert (Es : st_stats (reach (fun _ => 0) [1%N] ex_ops) = []) by reflexivity.
  cbv zeta. split; [exact En|]. split; [reflexivity|]. split; [discriminate|]. split; [|split].
  - intros i j _ _. unfold stats_of. rewrite Es. reflexivity.
  - split; [repeat constructor; intros []|]. split; [rewrite En; intros x [<-|[]]; simpl; tauto|].
    split; [intros i [<-|[]] [H|[]]; discriminate|].
    intros e He _ Ht. cbn in He. destruct He as [<-|[<-|[]]]; cbn in *; [destruct Ht as [H|[]]; discriminate|now left].
  - rewrite En. simpl. lia.
Qed.

Example C11_example_conclusion :
  @mass RF (@global_trust RF (fun _ => 0) (reach (fun _ => 0) [1%N] ex_ops) 1) [3%N] < 1 / 1000.
Proof.
  destruct C11_example_hypotheses as [_ [_ [H1 [H2 [H3 H4]]]]].
  apply (C11_small_net (fun _ => 0) (fun _ => Rle_refl 0) [1%N] ex_ops 1 [3%N]); try assumption. lra.
Qed.
