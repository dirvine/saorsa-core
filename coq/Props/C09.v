(* C09 — a peer record verifies only if its owner signed exactly it, cached or not.
   Property theorems only; the proofs are instantiations of Proofs/PeerRecord.v or a
   few lines.  Model: Model/PeerRecord.v
   (byte-exact signable encoding incl. postcard's encoding of the endpoints,
   verification, signature cache with an eviction oracle, constructor bounds).

   External primitives are Section variables:
     H   : BLAKE3 (user id derivation and cache key),
     vs  : ml_dsa_verify  key -> message -> signature -> bool,
     signed pk m : "the holder of pk's secret key produced a signature on m".
   Their assumed behaviour ([ideal_sig], [collision_free], Model/PeerRecord.v) is
   an explicit hypothesis of each theorem that needs it. *)
From SV Require Import Lib.Base Gen.PeerRecordConsts Model.PeerRecord Proofs.PeerRecord.
Local Open Scope N_scope.

(* ---- the canonical encoding is injective on every field the signature covers:
   id, key, sequence number, name, endpoints (every field of every endpoint),
   timestamp, lifetime (and version).
   [shape_rec] holds of every in-memory Rust value (array and integer widths);
   [canon_rec] excludes the recorded finding v6-scope-flowinfo; a successful
   encoding ([signable_opt _ = Some _]) excludes the empty name. *)
Theorem C09_signable_injective : forall pkw r1 r2 m,
  shape_rec pkw r1 -> shape_rec pkw r2 -> canon_rec r1 -> canon_rec r2 ->
  signable_opt r1 = Some m -> signable_opt r2 = Some m ->
  fields_of r1 = fields_of r2.
Proof. exact signable_injective. Qed.

(* The two excluded classes are exactly where the plain byte encoding is NOT
   injective: (1) None / Some "" names -- closed in the code by refusing to
   encode Some "" (F09c); (2) IPv6 flowinfo / scope_id, which serde does not
   write -- recorded finding v6-scope-flowinfo (the second witness even has a
   successful encoding). *)
Theorem C09_signable_injective_refuted :
  (exists r1 r2, r_name r1 <> r_name r2 /\ signable r1 = signable r2) /\
  (exists r1 r2, r_eps r1 <> r_eps r2 /\ signable r1 = signable r2 /\ signable_opt r1 <> None).
Proof.
  split.
  - exists (mkRec 1 [] [] 0 None [] 0 0 []), (mkRec 1 [] [] 0 (Some []) [] 0 0 []).
    split; [discriminate|reflexivity].
  - exists (mkRec 1 [] [] 0 None [mkEp [] (V6 [] 0 0 1) None 0 [] None 0] 0 0 []),
           (mkRec 1 [] [] 0 None [mkEp [] (V6 [] 0 0 2) None 0 [] None 0] 0 0 []).
    split; [discriminate|split; [reflexivity|discriminate]].
Qed.

Section Primitives.
  Variable H : bytes -> bytes.
  Variable vs : bytes -> bytes -> bytes -> bool.
  Variable signed : bytes -> bytes -> Prop.

  (* ---- verification is exactly: encodable, id = hash of the embedded key,
     signature valid over the encoding under the embedded key *)
  Theorem C09_verify_iff : forall r,
    verify H vs r = true <->
    name_empty r = false /\ r_uid r = H (r_pk r) /\ vs (r_pk r) (signable r) (r_sig r) = true.
  Proof. exact (verify_iff H vs). Qed.

  Theorem C09_verify_binds : ideal_sig vs signed -> forall r,
    verify H vs r = true ->
    r_uid r = H (r_pk r) /\ signed (r_pk r) (signable r) /\ r_name r <> Some [].
  Proof.
    intros Hid r Hv. apply verify_iff in Hv. destruct Hv as (Hn & Hu & Hs).
    split; [exact Hu|]. split; [exact (Hid _ _ _ Hs)|exact (name_empty_false r Hn)].
  Qed.

  (* ---- only exactly what the owner signed verifies.  G = the records the owner
     of r's key ever signed (each as it was when signed).  If the presented record
     verifies, its id is the hash of its key and it agrees with one of them on
     id, key, sequence number, name, endpoints, timestamp and lifetime. *)
  Theorem C09_only_exact : ideal_sig vs signed -> forall pkw (G : list prec) r,
    (forall m, signed (r_pk r) m -> exists g, In g G /\ signable_opt g = Some m) ->
    (forall g, In g G -> shape_rec pkw g /\ canon_rec g) ->
    shape_rec pkw r -> canon_rec r ->
    verify H vs r = true ->
    r_uid r = H (r_pk r) /\ exists g, In g G /\ fields_of g = fields_of r.
  Proof.
    intros Hid pkw G r Hown HG Hs Hc Hv.
    apply verify_iff in Hv. destruct Hv as (Hn & Hu & Hsig). split; [exact Hu|].
    destruct (Hown _ (Hid _ _ _ Hsig)) as (g & Hin & Hg). exists g. split; [exact Hin|].
    destruct (HG g Hin) as [Sg Cg].
    apply (signable_injective pkw g r (signable r)); try assumption.
    unfold signable_opt. rewrite Hn. reflexivity.
  Qed.

  (* contrapositive: every alteration of a covered field of anything the owner
     signed, and every record carrying an id that is not the key's hash, is rejected *)
  Theorem C09_altered_rejected : ideal_sig vs signed -> forall pkw (G : list prec) r,
    (forall m, signed (r_pk r) m -> exists g, In g G /\ signable_opt g = Some m) ->
    (forall g, In g G -> shape_rec pkw g /\ canon_rec g) ->
    shape_rec pkw r -> canon_rec r ->
    (r_uid r <> H (r_pk r) \/ forall g, In g G -> fields_of g <> fields_of r) ->
    verify H vs r = false.
  Proof.
    intros Hid pkw G r Hown HG Hs Hc Hbad.
    destruct (verify H vs r) eqn:Hv; [|reflexivity]. exfalso.
    destruct (C09_only_exact Hid pkw G r Hown HG Hs Hc Hv) as [Hu (g & Hin & Hf)].
    destruct Hbad as [Hb|Hb]; [exact (Hb Hu)|exact (Hb g Hin Hf)].
  Qed.

  (* ---- the cache is transparent: for every capacity (0 included), every
     eviction order (the oracle [ev] picks the victim from the step number and the
     whole cache state), every list of records -- genuine, altered, forged, in any
     order -- verify_cached returns exactly what verify_signature returns.
     No assumption on the signature scheme; the hash must have no collision
     among the cache-key byte strings of the records in play. *)
  Theorem C09_cache_transparent : forall pkw sigw cap ev rs,
    Forall (widths pkw sigw) rs -> collision_free H rs ->
    run (fun r => H (key_bytes r)) (verify H vs) cap ev 0 [] rs = map (verify H vs) rs.
  Proof.
    intros pkw sigw cap ev rs Hw Hcf.
    apply (run_transparent _ _ (fun r => In r rs /\ widths pkw sigw r)).
    - intros x y [Hx Wx] [Hy Wy] E. apply (verify_det_by_key H vs pkw sigw); auto.
    - rewrite Forall_forall in *. auto.
    - intros k b [].
  Qed.

  (* the cache never holds more than max(capacity,1) verdicts *)
  Theorem C09_cache_bounded : forall cap ev rs,
    (length (final (fun r => H (key_bytes r)) (verify H vs) cap ev 0 [] rs) <= Nat.max cap 1)%nat.
  Proof. intros. apply final_size. cbn. lia. Qed.
End Primitives.

(* ---- the key the code used before the repair (user id, sequence number,
   timestamp) is NOT transparent, even with an injective hash and a scheme with
   unique signatures: a forged record that shares the three fields inherits a
   cached "valid" (F09a). *)
Theorem C09_cache_refuted :
  exists (H : bytes -> bytes) (vs : bytes -> bytes -> bytes -> bool) cap ev rs,
    (forall x y, H x = H y -> x = y) /\
    (forall pk m s, vs pk m s = true -> s = toy_sign pk m) /\
    run (fun r => H (old_key_bytes r)) (verify H vs) cap ev 0 [] rs <> map (verify H vs) rs.
Proof.
  exists toy_H, toy_vs, 4%nat, (fun _ _ => O), [toy_genuine; toy_forged].
  split; [intros x y E; exact E|]. split; [intros pk m s E; apply bytes_eqb_eq, E|].
  vm_compute. discriminate.
Qed.

(* ---- construction bounds, with the numbers of the property text, proved from
   the constants regenerated from src/peer_record.rs *)
Theorem C09_bounds : forall name eps ttl,
  validate name eps ttl = true <->
  (match name with Some nm => 1 <= len nm <= 255 | None => True end) /\
  1 <= len eps <= 16 /\ 1 <= ttl <= 86400.
Proof. intros name eps ttl. unfold validate. destruct name; exact (validate_len_iff _ _ _). Qed.

Theorem C09_constants :
  PR_MAX_NAME_BYTES = 255 /\ PR_MAX_ENDPOINTS = 16 /\ PR_MAX_TTL_SECONDS = 86400 /\ PR_CURRENT_VERSION = 1.
Proof. repeat split; reflexivity. Qed.

(* ---- non-vacuity: the hypotheses are satisfiable and the definitions compute *)
Example C09_toy_ideal : ideal_sig toy_vs (fun pk m => exists s, toy_vs pk m s = true).
Proof. intros pk m s E. exists s. exact E. Qed.

Example C09_toy_shapes :
  shape_rec 32 toy_genuine /\ canon_rec toy_genuine /\ shape_rec 32 toy_forged /\ canon_rec toy_forged /\
  widths 32 (length (r_sig toy_genuine)) toy_genuine /\ widths 32 (length (r_sig toy_genuine)) toy_forged.
Proof. (* closed comparisons, and [Forall] over one-element lists *) repeat constructor. Qed.

Example C09_toy_collision_free : collision_free toy_H [toy_genuine; toy_forged].
Proof. intros r1 r2 _ _ E. exact E. Qed.

Example C09_toy_verdicts :
  verify toy_H toy_vs toy_genuine = true /\ verify toy_H toy_vs toy_forged = false /\
  (* repaired key: transparent on the very history that breaks the old key, capacity 1 *)
  run (fun r => toy_H (key_bytes r)) (verify toy_H toy_vs) 1 (fun _ _ => O) 0 []
      [toy_genuine; toy_forged; toy_genuine; toy_forged] = [true; false; true; false] /\
  run (fun r => toy_H (old_key_bytes r)) (verify toy_H toy_vs) 1 (fun _ _ => O) 0 []
      [toy_genuine; toy_forged; toy_genuine; toy_forged] = [true; true; true; true] /\
  parse_signable 32 (signable toy_genuine) = Some (fields_of toy_genuine, []) /\
  validate (Some [97]) [toy_ep] 300 = true /\ validate (Some []) [toy_ep] 300 = false /\
  validate None [] 300 = false /\ validate None [toy_ep] 86401 = false.
Proof. vm_compute. repeat split; reflexivity. Qed.
