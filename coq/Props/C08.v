(* C08 -- signatures verify only for the exact message and key that produced them.
   Property theorems only; the proofs are instantiations of Proofs/Sig.v or a few lines.  Model: Model/Sig.v.

   External primitives are Section variables; their assumed behaviour is an explicit,
   named hypothesis of each theorem that needs it (definitions in Model/Sig.v):
     keygen xi            ML-DSA-65 KeyGen_internal (FIPS 204 Algorithm 6) on 32 bytes of randomness / seed
     sign sk m r          ML-DSA-65 signing with randomness r (the library signs hedged: OsRng)
     vs3 pk m s           ML-DSA-65 verification, Ok(true) / Ok(false) / Err
     kdf, H, b64          HKDF-SHA3-256, SHA-256, base64 decoding
     issued pk m s        "the holder of pk's secret key produced s when asked to sign m"
     sig_correct          what a generated secret key signs verifies under its public key
     ideal_sig            vs3 pk m s = VTrue -> issued pk m s      (idealised strong unforgeability)
   That the shipped ML-DSA build satisfies [sig_correct] and rejects altered inputs is NOT proved
   here: it is validated by sampling on the release build (harness/src/bin/c08.rs) -- level partial. *)
From SV Require Import Lib.Base Lib.Bytes Gen.SigConsts Model.Sig Proofs.Sig.
Local Open Scope N_scope.

(* ---- sizes the glue code checks, regenerated from the Rust source *)
Theorem C08_constants :
  PUB_LEN = 1952 /\ SEC_LEN = 4032 /\ SIG_LEN = 3309 /\ SIG_NODEID_PUB_LEN = 1952 /\
  SIG_IP_SIG_LEN = 3309 /\ SIG_IP_SIG_BUF = 3309 /\ SIG_IP_SALT_LEN = 16 /\
  SIG_AUTH_SINGLE_SIG_LEN = 3309 /\ SIG_AUTH_DELEG_SIG_LEN = 3309 /\ SIG_NO_EXPIRY = 0.
Proof. repeat split; reflexivity. Qed.

Section Scheme.
  Variable keygen : bytes -> ident.
  Variable kdf : bytes -> option bytes -> bytes -> nat -> bytes.
  Variable sign : bytes -> bytes -> bytes -> bytes.
  Variable vs3 : bytes -> bytes -> bytes -> verdict.
  Variable issued : bytes -> bytes -> bytes -> Prop.

  (* ---- every identity the library constructs -- generated, restored from its exported form (any
     number of times), derived from a seed, derived along a path -- is a real key pair, and what it
     signs verifies under its public key, for every message and all signing randomness *)
  Theorem C08_identity_roundtrip : sig_correct keygen sign vs3 ->
    forall i, constructed keygen kdf i ->
      pair keygen i /\ forall m r, vs3 (fst i) m (sign (snd i) m r) = VTrue.
  Proof.
    intros Hc i C. pose proof (constructed_pair keygen kdf i C) as Hp. split; [exact Hp|].
    destruct Hp as [xi <-]. intros m r. apply Hc.
  Qed.

  (* export -> import succeeds on every constructed identity and gives the same keys *)
  Theorem C08_import_restores : keygen_sized keygen -> forall i, constructed keygen kdf i ->
    id_import (id_export i) = Some i.
  Proof. intros Hs i C. exact (import_export keygen Hs i (constructed_pair keygen kdf i C)). Qed.

  (* ---- only exact: whatever the key holder did not issue does not verify *)
  Theorem C08_only_exact : ideal_sig vs3 issued -> forall pk (G : list (bytes * bytes)),
    (forall m s, issued pk m s -> In (m, s) G) ->
    forall m s, ~ In (m, s) G -> vs3 pk m s <> VTrue.
  Proof. intros ideal pk G HG m s Hn E. apply Hn, HG, ideal, E. Qed.

  (* the three ways to be inexact, spelled out for one issued signature s on m *)
  Theorem C08_wrong_message : ideal_sig vs3 issued -> forall pk m s m',
    (forall x y, issued pk x y -> x = m /\ y = s) -> m' <> m -> vs3 pk m' s <> VTrue.
  Proof. intros ideal pk m s m' Hi Hn E. apply ideal, Hi in E. exact (Hn (proj1 E)). Qed.
  Theorem C08_wrong_signature : ideal_sig vs3 issued -> forall pk m s s',
    (forall x y, issued pk x y -> x = m /\ y = s) -> s' <> s -> vs3 pk m s' <> VTrue.
  Proof. intros ideal pk m s s' Hi Hn E. apply ideal, Hi in E. exact (Hn (proj2 E)). Qed.
  (* a changed key or another identity's key: its holder did not issue (m, s) *)
  Theorem C08_wrong_key : ideal_sig vs3 issued -> forall pk' m s,
    ~ issued pk' m s -> vs3 pk' m s <> VTrue.
  Proof. intros ideal pk' m s Hn E. apply Hn, ideal, E. Qed.

  Section Glue.
    Variable H : bytes -> bytes.
    Variable b64 : bytes -> option bytes.

    (* ---- address-bound node identities: accepted iff the id is the hash of ip||key||salt||ts, the key
       and signature have ML-DSA-65 sizes, and the signature verifies over the same bytes *)
    Theorem C08_ipnode_iff : forall n,
      ipnode_verify H vs3 n = VTrue <->
      H (node_message n) = n_id n /\ pk_ok (n_pk n) = true /\ len (n_sig n) = 3309 /\
      vs3 (n_pk n) (node_message n) (n_sig n) = VTrue.
    Proof.
      intro n. unfold ipnode_verify. rewrite !guard_true by discriminate.
      rewrite !negb_false_iff, bytes_eqb_eq, N.eqb_eq. reflexivity.
    Qed.

    (* the signed bytes determine every field (within one address family: equal ip widths) *)
    Theorem C08_ipnode_message_injective : forall ip1 pk1 s1 t1 ip2 pk2 s2 t2,
      length ip1 = length ip2 -> length pk1 = length pk2 -> t1 < 2 ^ 64 -> t2 < 2 ^ 64 ->
      ip_message ip1 pk1 s1 t1 = ip_message ip2 pk2 s2 t2 ->
      ip1 = ip2 /\ pk1 = pk2 /\ s1 = s2 /\ t1 = t2.
    Proof.
      intros ip1 pk1 s1 t1 ip2 pk2 s2 t2 L1 L2 B1 B2 E. unfold ip_message in E.
      apply app_inj_len in E; [|exact L1]. destruct E as [-> E].
      apply app_inj_len in E; [|exact L2]. destruct E as [-> E].
      apply app_inj_len_r in E; [|rewrite !le_length; reflexivity]. destruct E as [-> E].
      repeat split. exact (le_inj 8 _ _ B1 B2 E).
    Qed.

    (* G = everything the holder of n's key ever signed as an address binding (same family).
       An accepted node id is, field for field and signature included, one of them. *)
    Theorem C08_ipnode : ideal_sig vs3 issued -> forall n (G : list binding),
      (forall m s, issued (n_pk n) m s ->
         exists g, In g G /\ m = ip_message (b_ip g) (n_pk n) (b_salt g) (b_ts g) /\ s = b_sig g) ->
      (forall g, In g G -> length (b_ip g) = length (n_ip n) /\ b_ts g < 2 ^ 64) -> n_ts n < 2 ^ 64 ->
      ipnode_verify H vs3 n = VTrue ->
      n_id n = H (node_message n) /\
      exists g, In g G /\ n_ip n = b_ip g /\ n_salt n = b_salt g /\ n_ts n = b_ts g /\ n_sig n = b_sig g.
    Proof.
      intros ideal n G HG HW Ht V. apply C08_ipnode_iff in V. destruct V as (E1 & _ & _ & E4).
      split; [symmetry; exact E1|].
      apply ideal, HG in E4. destruct E4 as (g & Hin & Em & Es). exists g.
      destruct (HW g Hin) as [Lw Lt].
      apply C08_ipnode_message_injective in Em; [|symmetry; exact Lw|reflexivity|exact Ht|exact Lt].
      destruct Em as (A & _ & B & C). auto.
    Qed.

    (* ---- update packages: accepted iff checksum matches AND the named key is pinned AND inside its
       validity window AND the signature (both base64 texts decodable, ML-DSA sizes) verifies over the
       file contents under that pinned key *)
    Theorem C08_update_iff : forall keys now contents expected key_id sig,
      verify_file H vs3 b64 keys now contents expected key_id sig = UAccept <->
      hex (H contents) = map ascii_lower expected /\
      exists k pkb sb, find_key keys key_id = Some k /\ key_valid k now = true /\
        b64 (k_pub k) = Some pkb /\ b64 sig = Some sb /\ pk_ok pkb = true /\ sig_ok sb = true /\
        vs3 pkb contents sb = VTrue.
    Proof.
      intros. unfold verify_file, verify_checksum.
      rewrite <- verify_signature_iff.
      destruct (bytes_eqb_spec (hex (H contents)) (map ascii_lower expected)); cbn [negb]; [|split; [discriminate|intros [E _]; contradiction]].
      destruct (verify_signature vs3 b64 keys now key_id contents sig) as [[|]| |];
        (split; [try discriminate; auto|intros [_ [=]]; reflexivity]).
    Qed.

    Theorem C08_update : ideal_sig vs3 issued -> forall keys now contents expected key_id sig,
      verify_file H vs3 b64 keys now contents expected key_id sig = UAccept ->
      hex (H contents) = map ascii_lower expected /\
      exists k pkb sb, In k keys /\ k_id k = key_id /\
        k_from k <= now /\ (k_until k = 0 \/ now < k_until k) /\
        b64 (k_pub k) = Some pkb /\ b64 sig = Some sb /\ issued pkb contents sb.
    Proof.
      intros ideal keys now contents expected key_id sig V. apply C08_update_iff in V.
      destruct V as [Hc (k & pkb & sb & F & Kv & B1 & B2 & _ & _ & Vs)]. split; [exact Hc|].
      apply find_key_some in F. destruct F as [Hin Hid]. apply key_valid_iff in Kv. destruct Kv as [K1 K2].
      exists k, pkb, sb. auto 10.
    Qed.

    (* each conjunct is necessary: failing alone it makes the verifier refuse ... *)
    Theorem C08_update_conjunct_necessary : forall keys now contents expected key_id sig,
      (verify_checksum H contents expected = false \/
       find_key keys key_id = None \/
       (exists k, find_key keys key_id = Some k /\ key_valid k now = false) \/
       (forall pkb sb, vs3 pkb contents sb <> VTrue)) ->
      verify_file H vs3 b64 keys now contents expected key_id sig <> UAccept.
    Proof.
      intros keys now contents expected key_id sig Hc V. apply C08_update_iff in V.
      destruct V as [E (k & pkb & sb & F & Kv & _ & _ & _ & _ & Vs)].
      destruct Hc as [C|[C|[(k' & C1 & C2)|C]]]; [|congruence..|exact (C pkb sb Vs)].
      unfold verify_checksum in C. destruct (bytes_eqb_spec (hex (H contents)) (map ascii_lower expected)); [discriminate|contradiction].
    Qed.

    (* the validity window with its edges: from <= now, and now < until unless until = 0 *)
    Theorem C08_key_window : forall k now,
      key_valid k now = true <-> k_from k <= now /\ (k_until k = 0 \/ now < k_until k).
    Proof. exact key_valid_iff. Qed.
  End Glue.

  (* ---- record write authorisation.  [authorised] (Model/Sig.v) is the property's reading:
     single = the key signed; delegated = some listed key signed; threshold = at least t DISTINCT
     listed keys signed; composite = all / any member authorised. *)
  Section Auth.
    Variable record : bytes.
    Variable sigs : list bytes.

    Theorem C08_writeauth_single : forall pk,
      single_verify vs3 record sigs pk = VTrue <->
      exists s r, sigs = s :: r /\ pk_ok pk = true /\ len s = 3309 /\ vs3 pk record s = VTrue.
    Proof. exact (single_iff vs3 record sigs). Qed.

    Theorem C08_writeauth_delegated : forall ks,
      delegated_verify vs3 record sigs ks = VTrue <->
      exists s r ak, sigs = s :: r /\ len s = 3309 /\ In ak ks /\ pk_ok ak = true /\ vs3 ak record s = VTrue.
    Proof. exact (delegated_iff vs3 record sigs). Qed.

    (* the repaired threshold rule (thr_spec): for EVERY tree, acceptance implies authorisation *)
    Theorem C08_writeauth_spec_sound : forall a,
      wverify_spec vs3 record sigs a = VTrue -> authorised vs3 record sigs a.
    Proof. exact (wverify_sound vs3 record sigs _ (thr_spec_sound vs3 record sigs)). Qed.

    (* the code that exists (count-only threshold placeholder, recorded finding threshold-write-auth):
       forall trees outside the known class, acceptance implies authorisation *)
    Theorem C08_writeauth_threshold : forall a, has_threshold a = false ->
      wverify_code vs3 record sigs a = VTrue -> authorised vs3 record sigs a.
    Proof.
      intros a Hn V. apply C08_writeauth_spec_sound. unfold wverify_spec, wverify_code in *.
      rewrite (wverify_thr_irrelevant vs3 record sigs _ (thr_code sigs) a Hn). exact V.
    Qed.

    (* composite: all = every member accepts; any = some member accepts (and conversely when no
       member reports an error first) *)
    Theorem C08_writeauth_composite : forall thr l,
      (wverify vs3 record sigs thr (WComposite true l) = VTrue <->
         forall x, In x l -> wverify vs3 record sigs thr x = VTrue) /\
      (wverify vs3 record sigs thr (WComposite false l) = VTrue ->
         exists x, In x l /\ wverify vs3 record sigs thr x = VTrue) /\
      ((forall x, In x l -> wverify vs3 record sigs thr x <> VErr) ->
       (exists x, In x l /\ wverify vs3 record sigs thr x = VTrue) ->
       wverify vs3 record sigs thr (WComposite false l) = VTrue).
    Proof.
      intros thr l. split; [exact (all_v_true _ l)|]. split; [exact (any_v_true _ l)|exact (any_v_complete _ l)].
    Qed.

    (* under the ideal scheme an accepted leaf is a signature the listed key's holder issued on this record *)
    Theorem C08_writeauth_issued : ideal_sig vs3 issued -> forall k,
      signs vs3 record sigs k -> exists s, In s sigs /\ issued k record s.
    Proof. intros ideal k (s & Hin & V). exists s. split; [exact Hin|apply ideal, V]. Qed.
  End Auth.
End Scheme.

(* ---- F08a: the construction the code used before the repair (HKDF output cut into "public" and
   "secret" bytes) is not a key pair: (general) whatever byte pair of the right sizes is not a key
   pair is produced by it for a suitable KDF; (concrete) a correct scheme under which the old seed
   and path identities fail to verify their own signatures while the repaired ones verify. *)
Theorem C08_from_seed_refuted :
  (forall keygen pk sk, len pk = PUB_LEN -> ~ pair keygen (pk, sk) ->
     exists kdf, forall seed master path,
       ~ pair keygen (id_from_seed_old kdf seed) /\ ~ pair keygen (id_derive_path_old kdf master path)) /\
  (sig_correct toy_keygen toy_sign toy_vs3 /\
   (let i := id_from_seed_old toy_kdf [1; 2; 3] in toy_vs3 (fst i) [5] (toy_sign (snd i) [5] []) <> VTrue) /\
   (let i := id_derive_path_old toy_kdf [1; 2; 3] [0; 1] in toy_vs3 (fst i) [5] (toy_sign (snd i) [5] []) <> VTrue) /\
   (let i := id_from_seed toy_keygen toy_kdf [1; 2; 3] in toy_vs3 (fst i) [5] (toy_sign (snd i) [5] []) = VTrue) /\
   (let i := id_derive_path toy_keygen toy_kdf [1; 2; 3] [0; 1] in toy_vs3 (fst i) [5] (toy_sign (snd i) [5] []) = VTrue)).
Proof.
  split.
  - intros keygen pk sk L Hn. exists (fun _ _ _ _ => pk ++ sk). intros seed master path.
    unfold id_from_seed_old, id_derive_path_old. rewrite !split_at_app by exact L. split; exact Hn.
  - split; [exact toy_correct|].
    split; [vm_compute; discriminate|]. split; [vm_compute; discriminate|]. split; vm_compute; reflexivity.
Qed.

(* ---- F08b: the count-only threshold placeholder accepts two byte strings nobody signed *)
Theorem C08_writeauth_threshold_refuted :
  exists (vs3 : bytes -> bytes -> bytes -> verdict) record sigs a,
    (forall pk m s, vs3 pk m s <> VTrue) /\ has_threshold a = true /\
    wverify_code vs3 record sigs a = VTrue /\ ~ authorised vs3 record sigs a /\
    wverify_spec vs3 record sigs a = VFalse.
Proof.
  exists (fun _ _ _ => VFalse), [1], [[1]; [2]], (WThreshold 2 3 [[1]; [2]; [3]]).
  split; [intros; discriminate|]. split; [reflexivity|]. split; [vm_compute; reflexivity|].
  split; [|vm_compute; reflexivity].
  intros (signers & _ & _ & Hl & Hs).
  destruct signers as [|k r]; [vm_compute in Hl; apply Hl; reflexivity|].
  destruct (Hs k (or_introl eq_refl)) as [_ (s & _ & F)]. discriminate.
Qed.

(* ---- across address families the signed bytes are NOT injective for every byte string used as a
   key: an IPv4 and an IPv6 binding of one key coincide only if the key repeats itself with period
   12 = 16 - 4 (first statement); such degenerate byte strings exist (second).  A generated ML-DSA
   key (rho || packed t1) is not of that shape except with negligible probability; C08_ipnode is
   therefore stated per family. *)
Theorem C08_ipnode_cross_family : forall ip4 ip6 pk s1 t1 s2 t2,
  length ip4 = 4%nat -> length ip6 = 16%nat ->
  ip_message ip4 pk s1 t1 = ip_message ip6 pk s2 t2 ->
  forall i, (i + 12 < length pk)%nat -> nth (i + 12) pk 0 = nth i pk 0.
Proof.
  intros ip4 ip6 pk s1 t1 s2 t2 L4 L6. apply (ip_message_cross 12). rewrite L4, L6. reflexivity.
Qed.
Theorem C08_ipnode_cross_family_refuted :
  exists ip4 ip6 pk s4 s6 ts,
    length ip4 = 4%nat /\ length ip6 = 16%nat /\ pk_ok pk = true /\ len s4 = SIG_IP_SALT_LEN /\
    ip_message ip4 pk s4 ts = ip_message ip6 pk s6 ts.
Proof.
  (* the all-zero key: zeros before and after it are absorbed, so only the total width counts *)
  exists (repeat 0 4), (repeat 0 16), (repeat 0 (N.to_nat PUB_LEN)), (repeat 0 16), (repeat 0 4), 0.
  split; [reflexivity|]. split; [reflexivity|].
  split; [unfold pk_ok, len; rewrite repeat_length, N2Nat.id; apply N.eqb_refl|]. split; [reflexivity|].
  unfold ip_message. generalize (N.to_nat PUB_LEN). intro n. rewrite !app_assoc, <- !repeat_app. do 2 f_equal. lia.
Qed.

(* ---- update conjuncts are independent: each fails alone on a concrete input (toy primitives),
   including the window edges: valid at valid_from and at valid_until - 1, refused at
   valid_from - 1 and at valid_until; valid_until = 0 never expires *)
Theorem C08_update_conjuncts_independent :
  let ok := hex [42] in
  upd_conj toy_H toy_vs3 toy_b64 [toy_key 10 20] 15 [42] ok [107] toy_sigtext = (true, true, true, true) /\
  upd_conj toy_H toy_vs3 toy_b64 [toy_key 10 20] 15 [42] (hex [43]) [107] toy_sigtext = (false, true, true, true) /\
  upd_conj toy_H toy_vs3 toy_b64 [toy_key 10 20] 15 [42] ok [108] toy_sigtext = (true, false, false, false) /\
  upd_conj toy_H toy_vs3 toy_b64 [toy_key 10 20] 20 [42] ok [107] toy_sigtext = (true, true, false, true) /\
  upd_conj toy_H toy_vs3 toy_b64 [toy_key 10 20] 9 [42] ok [107] toy_sigtext = (true, true, false, true) /\
  upd_conj toy_H toy_vs3 toy_b64 [toy_key 10 20] 19 [42] ok [107] toy_sigtext = (true, true, true, true) /\
  upd_conj toy_H toy_vs3 toy_b64 [toy_key 10 20] 10 [42] ok [107] toy_sigtext = (true, true, true, true) /\
  upd_conj toy_H toy_vs3 toy_b64 [toy_key 10 0] 1000000 [42] ok [107] toy_sigtext = (true, true, true, true) /\
  upd_conj toy_H toy_vs3 toy_b64 [toy_key 10 20] 15 [42] ok [107] (61 :: [1; 1; 43]) = (true, true, true, false).
Proof. vm_compute. repeat split; reflexivity. Qed.

(* ---- non-vacuity: the hypotheses are satisfiable together and the definitions compute *)
Example C08_toy_correct : sig_correct toy_keygen toy_sign toy_vs3.
Proof. exact toy_correct. Qed.

(* the toy scheme is ideal for "issued = the one signature the key's tag determines" *)
Example C08_toy_ideal :
  ideal_sig toy_vs3 (fun pk m s => pk = [7; nth 1 pk 0] /\ s = 1 :: nth 1 pk 0 :: m).
Proof.
  intros pk m s V. unfold toy_vs3 in V.
  destruct (bytes_eqb_spec pk [7; nth 1 pk 0]) as [E1|]; [|discriminate].
  destruct (bytes_eqb_spec s (1 :: nth 1 pk 0 :: m)) as [E2|]; [|discriminate].
  split; assumption.
Qed.

Example C08_toy_verdicts :
  (* a toy node id: genuine accepted, one changed field refused *)
  (let pk := repeat 3 (N.to_nat PUB_LEN) in
   let sg := repeat 9 (N.to_nat SIG_LEN) in
   let vs := fun p m s => if bytes_eqb p pk && bytes_eqb s sg && bytes_eqb m (ip_message [10;0;0;1] pk [5;5] 77) then VTrue else VFalse in
   let n := mkNode (ip_message [10;0;0;1] pk [5;5] 77) [10;0;0;1] pk sg 77 [5;5] in
   ipnode_verify toy_H vs n = VTrue /\
   ipnode_verify toy_H vs (mkNode (n_id n) [10;0;0;2] pk sg 77 [5;5]) = VFalse /\
   ipnode_verify toy_H vs (mkNode (ip_message [10;0;0;2] pk [5;5] 77) [10;0;0;2] pk sg 77 [5;5]) = VFalse /\
   ipnode_verify toy_H vs (mkNode (n_id n) [10;0;0;1] pk (9 :: sg) 77 [5;5]) = VFalse) /\
  (* write authorisation trees over the toy scheme: key 1 signed [42], key 2 did not *)
  (let sigs := [[1; 1; 42]] in
   let vs := toy_vs3 in
   thr_spec vs [42] [[1;1;42]; [1;2;42]] 2 3 [[7;1]; [7;2]; [7;3]] = VFalse /\
   thr_code [[1;1;42]; [1;2;42]] 2 3 [[7;1]; [7;2]; [7;3]] = VTrue /\
   mk_threshold 2 3 [[7;1]; [7;2]; [7;3]] = Some (WThreshold 2 3 [[7;1]; [7;2]; [7;3]]) /\
   mk_threshold 4 3 [[7;1]; [7;2]; [7;3]] = None /\ mk_threshold 0 3 [[7;1]; [7;2]; [7;3]] = None /\
   all_v (fun v => v) [VTrue; VFalse; VErr] = VFalse /\ any_v (fun v => v) [VFalse; VErr; VTrue] = VErr /\
   all_v (fun v : verdict => v) [] = VTrue /\ any_v (fun v : verdict => v) [] = VFalse /\ sigs = sigs).
Proof. vm_compute. repeat split; reflexivity. Qed.
