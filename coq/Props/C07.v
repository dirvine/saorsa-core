(* C07 — damaged log or snapshot data is detected and never replayed as state.
   Property theorems, read off the normal form of recovery ([replay_sc], Proofs/Wal.v);
   a theorem that is a short corollary is proved here.  Model: Model/Wal.v.
   The record decoder [deser], the snapshot decoders, the value check and the keyed
   MAC [mac] (HMAC-SHA256 under the store key) are universally quantified: the
   theorems hold for ANY disk contents and ANY such functions. *)
From Coq Require Import Sorting.Sorted.
From SV Require Import Lib.Base Lib.Bytes Model.Wal Proofs.Wal.
Local Open Scope N_scope.

Section C07.
  Variable deser : bytes -> option entry.
  Variable mac : bytes -> bytes.
  Variable val_ok : bytes -> bool.
  Variable dec_changes : bytes -> option (list change).
  Variable deser_hdr : bytes -> option snaphdr.
  Variable dec_map : bytes -> option state.
  Notation recover := (recover deser mac val_ok dec_changes deser_hdr dec_map).
  Notation replay_file := (replay_file deser mac val_ok dec_changes).
  Notation replay_frame := (replay_frame deser mac val_ok dec_changes).

  (* For an ARBITRARY disk: every recovered (k, v) was put there by a record of a
     log file that decodes, whose tag verifies, and whose (tag-covered) payload
     assigns v to k - or it is in a snapshot file whose keyed checksum verifies. *)
  Theorem C07_no_invention : forall d k v,
    get (r_state (recover d)) k = Some v ->
    from_record deser mac val_ok dec_changes (wal_files d) k v \/
    from_snapshot mac deser_hdr dec_map (d_snap d) k v.
  Proof.
    intros d k v H. change (r_state (recover d)) with (fst (sc (recover d))) in H.
    unfold Model.Wal.recover in H. rewrite fold_files_sc in H. apply get_apply_changes_src in H as [H | H].
    - left. apply in_flat_map in H as (body & Hb & H). apply in_flat_map in Hb as (b & Hb & Hbody).
      unfold body_changes in H. destruct (deser body) as [e|] eqn:Hd; [|contradiction].
      destruct (verify mac e) eqn:Hv; [|contradiction].
      destruct (entry_changes val_ok dec_changes e) as [cs|] eqn:Hc; [|contradiction].
      exists b, body, e, cs. repeat split; assumption.
    - right. apply load_snaps_src in H. destruct H as (ts & b & h & st & Hi & Hr).
      exists ts, b, h, st. split; [apply isort_by_in in Hi; exact Hi | exact Hr].
  Qed.

  (* Under the MAC idealisation (a tag verifies only for records this store wrote under
     its key - an assumption about HMAC-SHA256, stated here, not proved): a value that
     comes from a log record comes from a record this store genuinely wrote for that key. *)
  Theorem C07_genuinely_written : forall (Written : entry -> Prop) files k v,
    (forall e, verify mac e = true -> Written e) ->
    from_record deser mac val_ok dec_changes files k v ->
    exists e cs, Written e /\ entry_changes val_ok dec_changes e = Some cs /\ In (k, Some v) cs.
  Proof. intros W files k v HW (b & body & e & cs & _ & _ & (_ & Hv & Hc) & Hin). exists e, cs. auto. Qed.

  (* The tag input determines every field (after the fix that length-prefixes key and
     value): a tag that verifies for one (id, time, type, key, value) cannot be
     presented with another key or value - nothing is "moved to another key". *)
  Theorem C07_tag_binds_key_and_value : forall ver txid ts t k v ver' txid' ts' t' k' v',
    u64 txid -> u64 ts -> u64 txid' -> u64 ts' -> u64 (len k) -> u64 (len k') ->
    (forall x, v = Some x -> u64 (len x)) -> (forall x, v' = Some x -> u64 (len x)) ->
    entry_fields ver txid ts t k v = entry_fields ver' txid' ts' t' k' v' ->
    ver = ver' /\ txid = txid' /\ ts = ts' /\ t = t' /\ k = k' /\ v = v'.
  Proof using.
    intros ver txid ts t k v ver' txid' ts' t' k' v' H1 H2 H3 H4 H5 H6 H7 H8 H.
    unfold entry_fields in H. apply app_inj_len in H as [[= ->] H]; [|reflexivity].
    apply le_bytes_app_inj in H as [-> H]; [|assumption..].
    apply le_bytes_app_inj in H as [-> H]; [|assumption..].
    apply app_inj_len in H as [[= Ht%ttype_code_inj] H]; [|reflexivity]. subst t'.
    apply le_bytes_app_inj in H as [Hl H]; [|assumption..].
    (* equal length prefixes: the keys have the same length, so they split the rest alike *)
    apply app_inj_len in H as [-> H]; [|exact (Nat2N.inj _ _ Hl)].
    repeat (split; [reflexivity|]).
    destruct v as [x|], v' as [y|]; try discriminate; [|reflexivity].
    apply app_inj_len in H as [_ H]; [|reflexivity]. apply le_bytes_app_inj in H as [_ ->]; auto.
  Qed.

  (* Records that precede the damage are honoured: whatever follows the complete
     records [good] in the file (damage, junk, nothing), replaying the file is
     replaying [good] and then replaying the rest. *)
  Theorem C07_before_damage_honoured : forall good rest r, Forall small good ->
    replay_file r (frames good ++ rest) = replay_file (fold_left replay_frame good r) rest.
  Proof.
    intros good rest r Hs. unfold Model.Wal.replay_file. rewrite parse_app by assumption.
    destruct (parse rest) as [fs t]. cbn [fst snd]. rewrite fold_left_app. reflexivity.
  Qed.

  (* Later records are honoured when the framing is intact: a rejected record
     (undecodable or failing its tag) between complete records is skipped and the
     recovered state and transaction counter are those of the file without it. *)
  Theorem C07_after_damage_if_framing_intact : forall pre bad post r,
    Forall small pre -> small bad -> Forall small post -> rejected deser mac bad ->
    sc (replay_file r (frames (pre ++ bad :: post))) = sc (replay_file r (frames (pre ++ post))).
  Proof.
    intros pre bad post r Hp Hb Hq Hr.
    rewrite !replay_file_sc, !parse_exact by (apply Forall_app; auto). cbn [fst].
    change (bad :: post) with ([bad] ++ post). rewrite !replay_sc_app, (replay_sc_rejected _ _ _ _ bad _ Hr). reflexivity.
  Qed.

  (* Damage is reported: a torn tail or a rejected record in any log file leaves at
     least one corruption event in the statistics. *)
  Theorem C07_stats : forall d b, In b (wal_files d) ->
    (snd (parse b) = true \/ exists body, In body (fst (parse b)) /\ rejected deser mac body) ->
    s_events (r_stats (recover d)) <> [].
  Proof.
    intros d b Hi Hd E. change (events (recover d) = []) in E. unfold Model.Wal.recover in E.
    rewrite (fold_events _ _ (replay_file_events deser mac val_ok dec_changes)) in E. apply app_eq_nil in E as [_ E].
    apply (flat_map_nil _ _ b) in E as [E1 E2]%app_eq_nil; [|exact Hi].
    destruct Hd as [Ht | (body & Hin & Hr)]; [rewrite Ht in E2; discriminate|].
    exact (rejected_body_events _ _ body Hr (flat_map_nil _ _ body E1 Hin)).
  Qed.

  (* ... and so does a snapshot that is rejected while no newer snapshot is accepted *)
  Theorem C07_stats_snapshot : forall l s ts b, In (ts, b) l -> snap_valid mac deser_hdr dec_map b = None ->
    (forall ts' b', In (ts', b') l -> ts < ts' -> snap_valid mac deser_hdr dec_map b' = None) ->
    StronglySorted (fun x y => fst y <= fst x) l -> NoDup (map fst l) ->
    (length (s_events s) < length (s_events (snd (load_snaps mac deser_hdr dec_map l s))))%nat.
  Proof using deser mac val_ok dec_changes deser_hdr dec_map.
    intros [|[t0 b0] tl] s ts b Hi Hv Hnewer Hs Hnd; [contradiction|]. inv Hs. inv Hnd.
    (* the head is the one in question or a newer one (names are distinct): rejected in both cases *)
    assert (H0 : snap_valid mac deser_hdr dec_map b0 = None).
    { destruct Hi as [[= -> ->] | Hi]; [exact Hv|]. apply (Hnewer t0 b0 (or_introl eq_refl)).
      rewrite Forall_forall in H2. specialize (H2 _ Hi). cbn in H2.
      assert (ts <> t0) by (intros ->; apply H3; apply (in_map fst) in Hi; exact Hi). lia. }
    cbn [load_snaps]. rewrite H0.
    pose proof (load_snaps_ge mac deser_hdr dec_map tl (st_event s EvSnapBad)) as H.
    unfold events in H. cbn in H. rewrite app_length in H. cbn in H. lia.
  Qed.
End C07.

(* Memory: every buffer size requested while replaying a file is at most the number
   of bytes that remain in the file (so at most the file size), whatever the bytes. *)
Theorem C07_alloc : forall b n r, In (n, r) (allocs b) -> n <= r /\ r <= len b.
Proof. intros b n r. apply parse_allocs_spec. Qed.
(* ... and the sizes requested are exactly the sizes of the records handed to the decoder *)
Theorem C07_alloc_is_frames : forall b, map fst (allocs b) = map len (fst (parse b)).
Proof. intro b. apply parse_allocs_spec. Qed.

(* non-vacuity: a file of one genuine-looking record, one garbage record and a 4-byte
   tail claiming 128 MiB - the parser yields both bodies, reports a torn tail and
   never asks for more than 4 bytes *)
Example C07_example :
  let b := frame [1;2;3;4] ++ frame [9] ++ [0;0;0;8] in
  parse b = ([[1;2;3;4]; [9]], true) /\ allocs b = [(4, 13); (1, 5)] /\
  small [1;2;3;4] /\ rejected (fun _ => None) (fun _ => []) [9].
Proof. vm_compute. repeat split; auto. Qed.
