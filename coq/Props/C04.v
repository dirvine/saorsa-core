(* C04 — replies reach only the matching request from the contacted peer; no leaks.
   The property theorems; the lemmas they share are in Proofs/Pending.v.
   Model: Model/Pending.v (both pending tables). *)
From SV Require Import Lib.Base Gen.PendingConsts Model.Pending Proofs.Pending.
Local Open Scope N_scope.

Theorem C04_constants : RR_MAX_ACTIVE_REQUESTS = 256 /\ PEND_SWEEP_MULT = 2.
Proof. split; reflexivity. Qed.

(* the DHT RPC table, DhtNetworkManager::active_operations *)

(* A pending DHT request completes with a reply only if the reply carries that request's
   identifier, arrives from the peer it was sent to, and nothing was delivered to it before. *)
Theorem C04_match : forall t id from pl t' i p,
  step t (Deliver id from pl) = (t', Some (i, p)) ->
  i = id /\ p = pl /\ exists en, lookup t id = Some en /\ e_peer en = from /\ e_tx en = true /\ e_rx en = true.
Proof.
  intros t id from pl t' i p. cbn [step]. destruct (lookup t id) as [en|]; [|discriminate].
  destruct (N.eqb_spec (e_peer en) from), (e_tx en) eqn:T, (e_rx en) eqn:R; try discriminate.
  intros [= _ -> ->]. repeat split. exists en. auto.
Qed.

(* Replies with an unknown identifier (never sent, already finished = late), from another
   peer, or duplicated, are discarded: no completion and the table is untouched. *)
Theorem C04_discard : forall t id from pl,
  (lookup t id = None \/ exists en, lookup t id = Some en /\ (e_peer en <> from \/ e_tx en = false)) ->
  step t (Deliver id from pl) = (t, None).
Proof.
  intros t id from pl. cbn [step]. intros [H|(en & H & Hc)]; rewrite H; [reflexivity|].
  destruct (N.eqb_spec (e_peer en) from), Hc as [Hc|Hc]; rewrite ?Hc, ?andb_false_r; tauto.
Qed.

(* ... and no delivery, completion or cancellation concerning one request touches another. *)
Theorem C04_isolation : forall t e j,
  match e with
  | Deliver id _ _ | Finish id | Cancel id => j <> id
  | Send _ _ _ _ => False
  end -> lookup (fst (step t e)) j = lookup t j.
Proof.
  intros t e j.
  destruct e as [id peer now to|id from pl|id|id]; cbn [step]; intro H; [tauto|..];
    apply not_eq_sym, N.eqb_neq in H.
  - destruct (lookup t id) as [en|]; [destruct ((e_peer en =? from) && e_tx en)|];
      cbn [fst]; rewrite ?lookup_insert, ?H; reflexivity.
  - cbn [fst]. rewrite lookup_remove, H. reflexivity.
  - destruct (lookup t id) as [en|]; cbn [fst]; rewrite ?lookup_insert, ?H; reflexivity.
Qed.

Theorem C04_isolation_send : forall t id peer now to j, NoDup (keys t) -> j <> id ->
  lookup (fst (step t (Send id peer now to))) j =
  match lookup t j with Some e => if expired now e then None else Some e | None => None end.
Proof.
  intros t id peer now to j Hn H. apply not_eq_sym, N.eqb_neq in H.
  cbn [step fst]. rewrite lookup_insert, H. apply lookup_sweep, Hn.
Qed.

(* For every interleaving (= every event list) in which request identifiers are fresh,
   a request is handed at most one reply. *)
Theorem C04_at_most_once : forall evs id, NoDup (send_ids evs) ->
  (length (completions_of id (snd (run [] evs))) <= 1)%nat.
Proof.
  intros evs id Hd. pose proof (completions_le_sends evs [] id (NoDup_nil _)) as H.
  rewrite NoDup_count_occ with (decA := N.eq_dec) in Hd. specialize (Hd id).
  cbn [live lookup] in H. lia.
Qed.

(* When a request's future returns, nothing of it remains ... *)
Theorem C04_no_leak_finished : forall t id, lookup (fst (step t (Finish id))) id = None.
Proof. intros t id. cbn [step fst]. rewrite lookup_remove, N.eqb_refl. reflexivity. Qed.

(* ... and what a dropped future left behind is gone at the first request issued more than
   PEND_SWEEP_MULT x timeout after it started. *)
Theorem C04_no_leak_cancelled : forall t id peer now to j en, NoDup (keys t) ->
  lookup (fst (step t (Send id peer now to))) j = Some en -> j = id \/ expired now en = false.
Proof.
  intros t id peer now to j en Hn H. destruct (N.eq_dec j id) as [E|E]; [left; exact E|right].
  rewrite C04_isolation_send in H by assumption.
  destruct (lookup t j) as [e|]; [|discriminate]. destruct (expired now e) eqn:Ex; congruence.
Qed.

Theorem C04_table_wf : forall t e, NoDup (keys t) -> NoDup (keys (fst (step t e))).
Proof. exact step_nodup. Qed.

(* the /rr/ table, TransportHandle::active_requests *)

Theorem C04_rr_cap : forall evs,
  N.of_nat (length (fst (rrun [] evs))) <= RR_MAX_ACTIVE_REQUESTS.
Proof. intro evs. apply rrun_cap. cbn. unfold RR_MAX_ACTIVE_REQUESTS. lia. Qed.

Theorem C04_rr_match : forall t id from pl t' i p,
  rstep t (RDeliver id from pl) = (t', RComplete i p) ->
  i = id /\ p = pl /\ rlookup t id = Some from /\ rlookup t' id = None.
Proof.
  intros t id from pl t' i p. cbn [rstep]. destruct (rlookup t id) as [q|]; [|discriminate].
  destruct (N.eqb_spec q from) as [->|]; [|discriminate]. intros [= <- -> ->].
  rewrite rlookup_rremove, N.eqb_refl. auto.
Qed.

Theorem C04_rr_isolation : forall t e j,
  match e with RDeliver id _ _ | RFinish id | RCancel id => j <> id | RSend id _ => j <> id end ->
  rlookup (fst (rstep t e)) j = rlookup t j.
Proof.
  intros t e j.
  destruct e as [id peer|id from pl|id|id]; cbn [rstep]; intro H; apply not_eq_sym, N.eqb_neq in H.
  - destruct (RR_MAX_ACTIVE_REQUESTS <=? N.of_nat (length t)); cbn [fst rlookup];
      rewrite ?rlookup_rremove, ?H; reflexivity.
  - destruct (rlookup t id) as [p|]; [destruct (p =? from)|]; cbn [fst];
      rewrite ?rlookup_rremove, ?H; reflexivity.
  - cbn [fst]. rewrite rlookup_rremove, H. reflexivity.
  - cbn [fst]. rewrite rlookup_rremove, H. reflexivity.
Qed.

Theorem C04_rr_no_leak : forall t id,
  rlookup (fst (rstep t (RFinish id))) id = None /\ rlookup (fst (rstep t (RCancel id))) id = None.
Proof. intros t id. cbn [rstep fst]. rewrite rlookup_rremove, N.eqb_refl. auto. Qed.

(* non-vacuity: wrong sender, guessed id, the real reply, a duplicate, a late reply, a dropped
   future swept by a later request *)
Example C04_example :
  let evs := [Send 1 10 0 100; Send 2 11 5 100; Deliver 1 11 70; Deliver 9 10 71; Deliver 1 10 72;
              Deliver 1 10 73; Finish 1; Deliver 1 10 74; Cancel 2; Send 3 12 500 100] in
  snd (run [] evs) = [None; None; None; None; Some (1, 72); None; None; None; None; None]
  /\ map fst (fst (run [] evs)) = [3].
Proof. vm_compute. split; reflexivity. Qed.
