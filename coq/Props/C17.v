(* C17 - placement returns exactly k distinct diverse candidates or an error.
   The property theorems; the proofs instantiate the lemmas of Proofs/Placement*.v or are a
   few lines about one model function.
   Model: Model/Placement.v (binary64 model of src/placement/algorithms.rs and of
   PlacementEngine::select_nodes).  The oracles - every random draw [draw], Rust's powf
   results [kf] (u.powf(1/w)) and [pf] (score.powf(exponent)), the distance table [dist],
   the metadata table [md] - and all numeric inputs (any binary64 value, NaN and
   infinities included) are universally quantified. *)
From Coq Require Import Floats QArith Reals Lra Permutation.
From SV Require Import Lib.Base Lib.ListAux Gen.PlacementConsts Model.Placement Proofs.Placement Proofs.PlacementR Proofs.PlacementTie.

(* The numbers of the property text, proved from the constants regenerated from
   src/placement/algorithms.rs: 100 km / 2 = 50 km, 2 per region, 3 per ASN. *)
Theorem C17_constants :
  thr_geo = 50%float /\ PLC_MAX_PER_REGION = 2%N /\ PLC_MAX_PER_ASN = 3%N /\
  (PLC_MIN_GEO_DISTANCE / PLC_GEO_DIVISOR == 50)%Q.
Proof. repeat split; reflexivity. Qed.

(* Every Ok answer of WeightedPlacementStrategy::select_nodes, for all draws: exactly k
   nodes, pairwise distinct, all of them supplied candidates with metadata, at most 2 per
   region, at most 3 per ASN, no two closer than 50 km (IEEE comparison on the distance
   table: [ltb d 50 = false]). *)
Theorem C17_ok_shape : forall kf pf dist md cf draw cands k sel,
  select_nodes kf pf dist md cf draw cands k = Ok sel ->
  length sel = k /\ NoDup sel /\ incl sel cands /\
  (forall x, In x sel -> md x <> None) /\
  (forall r, (region_count md r sel <= 2)%nat) /\
  (forall a, (asn_count md a sel <= 3)%nat) /\
  (forall x y, In x sel -> In y sel -> x <> y -> PrimFloat.ltb (dist x y) 50 = false).
Proof.
  intros kf pf dist md cf draw cands k sel H.
  destruct (select_nodes_trace _ _ _ _ _ _ _ _ _ H) as [hist Ht].
  exact (select_trace_shape _ _ _ _ _ _ _ _ _ _ Ht).
Qed.

(* the same through PlacementEngine::select_nodes, which adds: k is at least the configured
   minimum and the Byzantine requirement *)
Theorem C17_engine_ok_shape : forall kf pf dist md cf draw rf_min bft_req cands k sel,
  engine_select kf pf dist md cf draw rf_min bft_req cands k = Ok sel ->
  select_nodes kf pf dist md cf draw cands k = Ok sel /\
  (rf_min <= N.of_nat k)%N /\ (rf_min <= N.of_nat (length sel))%N /\ (bft_req <= N.of_nat (length sel))%N.
Proof.
  intros kf pf dist md cf draw rf_min bft_req cands k sel. unfold engine_select.
  destruct cands as [|c0 cands0]; [discriminate|].
  destruct (N.of_nat k <? rf_min)%N eqn:E1; [discriminate|].
  destruct (select_nodes _ _ _ _ _ _ _ _) as [s| |]; try discriminate.
  destruct (N.of_nat (length s) <? rf_min)%N eqn:E2; [discriminate|].
  destruct (N.of_nat (length s) <? bft_req)%N eqn:E3; [discriminate|].
  destruct (flt _ _); [discriminate|]. intros [= <-]. repeat split; lia.
Qed.

(* "otherwise the call returns an error": a request for more nodes than there are
   candidates, or from an empty set, is an error whatever the draws *)
Theorem C17_too_few_candidates : forall kf pf dist md cf draw cands k,
  (length cands < k)%nat \/ cands = [] ->
  select_nodes kf pf dist md cf draw cands k = Err EInsufficient.
Proof.
  intros kf pf dist md cf draw cands k H. unfold select_nodes, select_trace.
  destruct cands as [|c cands]; [reflexivity|].
  destruct H as [H|H]; [|discriminate]. apply Nat.ltb_lt in H. rewrite H. reflexivity.
Qed.

(* eight regions (the variants of NetworkRegion, src/placement/types.rs) with at most two nodes
   each: no Ok answer has more than 16 nodes *)
Theorem C17_at_most_16 : forall kf pf dist md cf draw cands k sel,
  (forall x ra, md x = Some ra -> (fst ra < 8)%N) ->
  select_nodes kf pf dist md cf draw cands k = Ok sel -> (k <= 16)%nat.
Proof. exact select_le_16. Qed.

(* No panic outcome, for zero / negative / infinite / NaN / subnormal exponents and
   whatever the oracles return for them.  The only modelled source of a panic is sort_by
   meeting a NaN key; hypotheses: a draw is in [0,1) and Rust's u.powf(1/w) is not NaN for
   such a draw and a weight that passed the sampler's guard (non-NaN and > 0). *)
Theorem C17_total : forall kf pf dist md cf draw cands k,
  (forall u w, in_unit_open u = true -> weight_bad w = false -> PrimFloat.is_nan (kf u w) = false) ->
  (forall i, in_unit_open (draw i) = true) ->
  select_nodes kf pf dist md cf draw cands k <> Panic.
Proof.
  intros kf pf dist md cf draw cands k Hkf Hd. unfold select_nodes.
  pose proof (select_trace_not_panic kf pf dist md cf draw Hkf Hd cands k).
  destruct (select_trace _ _ _ _ _ _ _ _) as [sh| |]; [discriminate|discriminate|contradiction].
Qed.

Theorem C17_sampler_total : forall kf draw off cands k,
  (forall u w, in_unit_open u = true -> weight_bad w = false -> PrimFloat.is_nan (kf u w) = false) ->
  (forall i, in_unit_open (draw i) = true) ->
  sample_nodes kf draw off cands k <> Panic.
Proof. exact sample_nodes_no_panic. Qed.

(* the guard as it was before the fix (only  w <= 0.0  rejected) does let a NaN weight reach
   the sort: the repaired defect, as a witness *)
Theorem C17_old_guard_refuted : exists cands keys k,
  sample_keys_gen weight_bad_old cands keys k = Panic /\
  sample_keys_gen weight_bad cands keys k = Err EInvalidWeight.
Proof. exists [(1%N, PrimFloat.nan); (2%N, 1%float)], [PrimFloat.nan; 0.5%float], 1%nat. split; reflexivity. Qed.

(* the error of a degenerate exponent: a weight that is not finite and positive is rejected *)
Theorem C17_bad_weight_is_error : forall pf t s c d a b g w,
  calc_weight pf t s c d a b g = Ok w -> PrimFloat.is_finite w = true /\ PrimFloat.leb w 0 = false.
Proof. intros pf t s c d a b g w. exact (calc_weight_spec pf t s c d a b g (Ok w)). Qed.

(* Without replacement, k rounds: round j starts from the candidate list [nth j hist], the
   node chosen in round j is in it, and a node chosen in an earlier round i < j is not. *)
Theorem C17_without_replacement : forall kf pf dist md cf draw cands k sel hist,
  select_trace kf pf dist md cf draw cands k = Ok (sel, hist) ->
  length hist = k /\
  forall i j x r, nth_error sel i = Some x -> nth_error hist j = Some r ->
    (i = j -> In x r) /\ ((i < j)%nat -> ~ In x r).
Proof.
  intros kf pf dist md cf draw cands k sel hist H.
  destruct (select_trace_rounds _ _ _ _ _ _ _ _ _ _ H) as [Hl Hwr].
  split; [exact Hl|exact (wr_nth _ _ Hwr)].
Qed.

(* WeightedSampler::sample_nodes (public): an Ok answer has exactly k entries, each a listed
   candidate, no listed entry is used twice (with the unselected rest the answer is a
   permutation of the listed ids; distinct ids give a duplicate-free answer), and for
   k > 0 every listed weight passed the guard (not NaN, > 0). *)
Theorem C17_sampler_shape : forall kf draw off cands k sel,
  sample_nodes kf draw off cands k = Ok sel ->
  length sel = k /\ incl sel (map fst cands) /\
  (exists rest, Permutation (sel ++ rest) (map fst cands)) /\
  (NoDup (map fst cands) -> NoDup sel) /\
  ((0 < k)%nat -> forall c, In c cands -> weight_bad (snd c) = false).
Proof.
  intros kf draw off cands k sel H.
  destruct (sample_nodes_spec _ _ _ _ _ _ H) as (Hl & [rest Hp] & Hw).
  split; [exact Hl|]. split; [|split; [exists rest; exact Hp|split; [|exact Hw]]].
  - intros x Hx. apply (Permutation_in _ Hp), in_or_app. left; exact Hx.
  - intros Hnd. exact (NoDup_app_l _ _ (Permutation_NoDup (Permutation_sym Hp) Hnd)).
Qed.

(* The key u^(1/w) is non-decreasing in the weight (real analysis). *)
Theorem C17_key_monotone : forall u w1 w2 : R,
  (0 < u < 1)%R -> (0 < w1 <= w2)%R -> (Rpower u (/ w1) <= Rpower u (/ w2))%R.
Proof. exact rkey_monotone. Qed.

(* Swap dominance: the sampler ([topk], as in the model: stable descending sort, keys u^(1/w)
   over the reals).  Let a be at least as heavy as b.  If with draws (ua, ub) the lighter b is
   selected and the heavier a is not, then with the two draws exchanged a is selected and b is
   not.  The original run may contain any ties (they are broken by slice position, as the
   stable sort does); in the exchanged run only the two exchanged candidates must not tie with
   another key.  Exchanging the two draws is a measure-preserving involution of the draw space
   and ties have probability zero, hence P(b selected) <= P(a selected). *)
Theorem C17_swap_dominance : forall (es : list entry) k a b wa wb ua ub,
  NoDup (map e_id es) ->
  In (a, (wa, ua)) es -> In (b, (wb, ub)) es -> a <> b ->
  (0 < wb <= wa)%R -> (0 < ua < 1)%R -> (0 < ub < 1)%R ->
  let es' := swap_draws a b ua ub es in
  (forall e, In e es' -> e_id e <> a -> e_key e <> Rpower ub (/ wa)) ->
  (forall e, In e es' -> e_id e <> b -> e_key e <> Rpower ua (/ wb)) ->
  In b (rsample es k) -> ~ In a (rsample es k) ->
  In a (rsample es' k) /\ ~ In b (rsample es' k).
Proof. exact swap_dominance_ties. Qed.

(* what "selected" means for the sampler, ties included: fewer than k entries rank before it,
   where q ranks before p iff key q > key p, or the keys are equal and q is listed earlier *)
Theorem C17_sampler_rank : forall (es : list entry) k i e,
  NoDup (map e_id es) -> nth_error es i = Some e ->
  (In (e_id e) (rsample es k) <-> (cntG (fun q => befE q (i, e)) (indexed es) < k)%nat).
Proof. unfold cntG. rewrite befE_bef. exact (topk_rank Rgtb e_key e_id Rgtb_irrefl Rgtb_trans Rgtb_negtrans). Qed.

(* ReplicationFactor::new accepts exactly 1 <= min <= default <= max; the shipped default
   (3, 8, 16) is accepted and its maximum is the 16 of C17_at_most_16 *)
Theorem C17_replication_factor_bounds :
  (forall mn df mx, rf_new_ok mn df mx = true <-> (1 <= mn /\ mn <= df /\ df <= mx)%N) /\
  rf_new_ok PLC_RF_MIN PLC_RF_DEFAULT PLC_RF_MAX = true /\ PLC_RF_MAX = 16%N.
Proof.
  split; [|split; reflexivity]. intros mn df mx. unfold rf_new_ok.
  rewrite !andb_true_iff, negb_true_iff, N.eqb_neq, !N.leb_le. lia.
Qed.

(* four far-apart nodes in two regions, k = 3, concrete draws: an Ok answer of 3 nodes; the
   same request with k = 5 is an error; hypotheses of C17_total are satisfiable *)
Definition ex_md (x : N) : option (N * N) :=
  if (x <? 4)%N then Some (x / 2, 64500 + x)%N else None.
Definition ex_dist (x y : N) : float := if (x =? y)%N then 0%float else 3000%float.
Definition ex_kf (u w : float) : float := u.            (* any non-NaN stand-in for powf *)
Definition ex_draw (i : nat) : float :=
  nth i [0.5; 0.25; 0.75; 0.125; 0.375; 0.625; 0.875; 0.0625; 0.5]%float 0.5%float.
Example C17_example_ok :
  select_nodes ex_kf (fun _ a => a) ex_dist ex_md (mkCfg 1 1 1) ex_draw [0; 1; 2; 3]%N 3 = Ok [2; 3; 1]%N
  /\ select_nodes ex_kf (fun _ a => a) ex_dist ex_md (mkCfg 1 1 1) ex_draw [0; 1; 2; 3]%N 5 = Err EInsufficient
  /\ select_nodes ex_kf (fun _ a => a) ex_dist ex_md (mkCfg PrimFloat.nan 1 1) ex_draw [0; 1; 2; 3]%N 3 = Err EInvalidWeight
  /\ select_nodes ex_kf (fun _ a => a) ex_dist ex_md (mkCfg 1 1 1) ex_draw [0; 1; 2; 3; 4]%N 3 = Err EMetadata.
Proof. vm_compute. repeat split; reflexivity. Qed.

(* three nodes of one region: the third breaks the region limit -> error, never a set *)
Example C17_example_region_error :
  select_nodes ex_kf (fun _ a => a) ex_dist (fun x => Some (0, x)%N) (mkCfg 1 1 1) ex_draw [0; 1; 2]%N 3 = Err EDivRegion.
Proof. vm_compute. reflexivity. Qed.

Example C17_key_example : (Rpower (/ 2) (/ 1) <= Rpower (/ 2) (/ 2))%R.
Proof. apply C17_key_monotone; lra. Qed.
