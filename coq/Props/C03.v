(* C03 — DHT put / get / remote PUT over per-node stores.  The theorems on put rest on [put_eq] and
   [put_done], those on get on [get_spec], those on histories on [run_from_AllP]
   (Proofs/Store.v).  Model: Model/Store.v (on Model/Lookup.v).
   The adversary is the network: the arbitrary functions [reply] (FIND_NODE answers),
   [responsive] (does a peer process a PUT) and [nodes_reply] (FIND_VALUE answers of peers
   that do not hold the key), the arbitrary initial stores and the arbitrary histories. *)
From SV Require Import Lib.Base Lib.ListAux Gen.LookupConsts Model.Lookup Model.Store Proofs.Lookup Proofs.Store.
Local Open Scope N_scope.

(* the numbers the property relies on, from the regenerated constants *)
Theorem C03_constants :
  MGR_MAX_VALUE_SIZE = 512 /\ CORE_MAX_DHT_VALUE_SIZE = 512 /\
  MGR_MAX_VALUE_SIZE = CORE_MAX_DHT_VALUE_SIZE /\
  GET_ALPHA = 3 /\ GET_MAX_ITERATIONS = 20 /\ 0 < GET_ALPHA.
Proof. repeat split; reflexivity. Qed.

(* 1a. no store path adds a value longer than the limit:
       [AllSmall ss := forall p k v, held ss p k = Some v -> vlen v <= MGR_MAX_VALUE_SIZE]
       is preserved by the remote PUT handler, the core store, the PUT fan-out, put and get *)
Theorem C03_size_cap_step :
  (forall ss p k v, AllSmall ss -> AllSmall (fst (handle_put ss p k v))) /\
  (forall ss p k v, AllSmall ss -> AllSmall (fst (core_store ss p k v))) /\
  (forall responsive ss ts k v, AllSmall ss -> AllSmall (fst (replicate responsive ss ts k v))) /\
  (forall keyof reply responsive self selfs_marked selfs_all repl ss k v init, AllSmall ss ->
     AllSmall (fst (fst (put keyof reply responsive self selfs_marked selfs_all repl ss k v init)))) /\
  (forall nodes_reply self selfs_marked selfs_all key ss init, AllSmall ss ->
     AllSmall (fst (fst (fst (get nodes_reply self selfs_marked selfs_all key ss init))))).
Proof.
  repeat split; intros; apply AllSmall_AllP; rewrite ?handle_put_core;
    [apply core_store_AllP|apply core_store_AllP|apply replicate_AllP|apply put_AllP|apply get_AllP]; auto.
Qed.

(* 1b. over every history of puts, gets and remote PUTs (each with its own network behaviour,
       origin and parameters) from the empty stores, no node ever stores more than 512 bytes *)
Theorem C03_size_cap_history : forall ops p k v,
  held (run ops) p k = Some v -> vlen v <= MGR_MAX_VALUE_SIZE.
Proof. intro ops. apply (run_from_AllP (fun _ v => vlen v <= MGR_MAX_VALUE_SIZE)); [auto|apply AllP_empty]. Qed.

(* 1c. an oversized value is refused on every store path and leaves every store as it was *)
Theorem C03_oversize_refused_everywhere : forall v, MGR_MAX_VALUE_SIZE < vlen v ->
  (forall ss p k, handle_put ss p k v = (ss, false)) /\
  (forall ss p k, core_store ss p k v = (ss, false)) /\
  (forall responsive ss ts k, fst (replicate responsive ss ts k v) = ss) /\
  (forall keyof reply responsive self selfs_marked selfs_all repl ss k init,
     put keyof reply responsive self selfs_marked selfs_all repl ss k v init = (ss, PutRefused, [])).
Proof.
  intros v Hv. pose proof Hv as Hb. apply N.leb_gt in Hb.
  repeat split; intros; rewrite ?handle_put_core, ?put_eq, ?Hb; auto using core_store_big.
  induction ts as [|p ts IH]; [reflexivity|]. rewrite replicate_cons, Hb, andb_false_r. exact IH.
Qed.

(* 2. a put of more than 512 bytes changes nothing anywhere and sends no request ... *)
Theorem C03_put_refused : forall keyof reply responsive self selfs_marked selfs_all repl ss k v init,
  MGR_MAX_VALUE_SIZE < vlen v ->
  put keyof reply responsive self selfs_marked selfs_all repl ss k v init = (ss, PutRefused, []).
Proof. intros until init. intro H. apply N.leb_gt in H. rewrite put_eq, H. reflexivity. Qed.

(* ... that is the only refusal, and every value within the limit is accepted *)
Theorem C03_put_refused_only_oversize :
  forall keyof reply responsive self selfs_marked selfs_all repl ss k v init ss' reqs,
  put keyof reply responsive self selfs_marked selfs_all repl ss k v init = (ss', PutRefused, reqs) ->
  MGR_MAX_VALUE_SIZE < vlen v /\ ss' = ss /\ reqs = [].
Proof.
  intros until reqs. rewrite put_eq. cbv zeta.
  destruct (vlen v <=? MGR_MAX_VALUE_SIZE) eqn:E; intro H; inv H. repeat split. lia.
Qed.

Theorem C03_put_accepted : forall keyof reply responsive self selfs_marked selfs_all repl ss k v init,
  vlen v <= MGR_MAX_VALUE_SIZE ->
  exists ss' n outs reqs,
    put keyof reply responsive self selfs_marked selfs_all repl ss k v init = (ss', PutDone n outs, reqs).
Proof.
  intros until init. intro H. apply N.leb_le in H. rewrite put_eq, H. cbv zeta. eauto.
Qed.

(* 3. an accepted put (no side condition on the network or the initial candidates):
      the value is within the limit; afterwards the origin holds exactly v under k, and so does
      every peer reported as a successful replica; the PUT targets are exactly the members of
      the closest-node lookup for k that are not an id of the local node, in lookup order, and
      the FIND_NODE requests are the lookup's; no target is a local id; an outcome is true
      exactly when the target processes PUTs; the replica count is 1 + the successes; nothing
      else changes: other nodes that are not successful targets keep every binding, and every
      node keeps every other key *)
Theorem C03_put_replicas :
  forall keyof reply responsive self selfs_marked selfs_all repl ss k v init ss' n outs reqs,
  put keyof reply responsive self selfs_marked selfs_all repl ss k v init = (ss', PutDone n outs, reqs) ->
  let s := lookup keyof reply self selfs_marked selfs_all k repl init in
  vlen v <= MGR_MAX_VALUE_SIZE /\
  held ss' self k = Some v /\
  (forall p, In (p, true) outs -> held ss' p k = Some v) /\
  map fst outs = filter (fun p => negb (mem p selfs_all)) (best s) /\
  reqs = rev (sent s) /\
  (forall p, In p (map fst outs) -> ~ In p selfs_all) /\
  (forall p b, In (p, b) outs -> b = responsive p) /\
  n = 1 + N.of_nat (length (filter (fun o => snd o) outs)) /\
  (forall p k', p <> self -> ~ In (p, true) outs -> held ss' p k' = held ss p k') /\
  (forall p k', k' <> k -> held ss' p k' = held ss p k').
Proof.
  intros until reqs. intro H. apply put_done in H. cbv zeta in *. destruct H as [H1 [H2 [H3 [H4 [H5 H6]]]]].
  repeat split; auto.
  - rewrite H6, !N.eqb_refl. reflexivity.
  - intros p Hp. apply has_true_In in Hp. rewrite H6, N.eqb_refl, Hp, orb_true_r. reflexivity.
  - intros p Hp. rewrite H2 in Hp. apply filter_In in Hp. destruct Hp as [_ Hp].
    apply negb_true_iff, mem_false in Hp. exact Hp.
  - intros p k' Hp Hn. rewrite <- has_true_In in Hn. apply not_true_is_false in Hn.
    apply not_eq_sym, N.eqb_neq in Hp. rewrite H6, Hp, Hn, andb_false_r. reflexivity.
  - intros p k' Hk. apply not_eq_sym, N.eqb_neq in Hk. rewrite H6, Hk. reflexivity.
Qed.

(* 3'. under the side conditions of C01 the targets are pairwise distinct, at most [repl],
       never the local node, and each one answered a FIND_NODE request of this very put *)
Theorem C03_put_targets_wf :
  forall keyof reply responsive self selfs_marked selfs_all repl ss k v init ss' n outs reqs,
  NoDup init -> (forall p, In p init -> ~ In p selfs_all) ->
  incl selfs_marked selfs_all -> In self selfs_marked ->
  put keyof reply responsive self selfs_marked selfs_all repl ss k v init = (ss', PutDone n outs, reqs) ->
  NoDup (map fst outs) /\ (length outs <= repl)%nat /\
  forall p, In p (map fst outs) -> p <> self /\ In p reqs /\ reply p <> None.
Proof.
  intros until reqs. intros Hnd Hi Hm Hs H. apply put_done in H. cbv zeta in H. destruct H as [_ [H2 [H3 _]]].
  destruct (lookup_inv keyof reply self selfs_marked selfs_all k repl init Hnd Hi (Hm _ Hs)) as [HB _].
  pose proof (NoDup_filter (fun p => negb (mem p selfs_all)) (b_nodup HB)) as Hnf.
  rewrite <- (map_length fst), H2, H3. split; [exact Hnf|]. split.
  - eapply Nat.le_trans; [|exact (b_len HB)]. apply NoDup_incl_length; [exact Hnf|apply incl_filter].
  - intros p Hp. apply filter_In in Hp. destruct Hp as [Hb Hp].
    apply negb_true_iff, mem_false in Hp. apply Hm in Hs.
    destruct (b_src HB p Hb) as [->|[Hsent Hr]]; [contradiction|].
    split; [congruence|]. split; [apply in_rev in Hsent; exact Hsent|exact Hr].
Qed.

(* 4. a get that returns bytes: they were held under THIS key, before the get, by the node
      named as source, which is the local node or a peer that was sent a request and answered;
      the only store effect is the local cache at (self, key), which then holds exactly v
      whenever v is within the limit (always, in reachable states: [C03_get_caches_reachable]) *)
Theorem C03_get_sound : forall nodes_reply self selfs_marked selfs_all key ss init ss' v p reqs cut,
  get nodes_reply self selfs_marked selfs_all key ss init = (ss', GetFound v p, reqs, cut) ->
  held ss p key = Some v /\
  (p = self \/ (In p reqs /\ nodes_reply p <> FVFail)) /\
  (forall q k, (q <> self \/ k <> key) -> held ss' q k = held ss q k) /\
  (vlen v <= MGR_MAX_VALUE_SIZE -> held ss' self key = Some v) /\
  (held ss' self key = Some v \/ ss' = ss).
Proof.
  intros until cut.
  destruct (get_spec nodes_reply self selfs_marked selfs_all key ss init)
    as [[v0 [Eh ->]]|[_ [s [[[v1 p1]|] [[_ H] ->]]]]]; intro E; [| |discriminate].
  - injection E as <- <- <- <- <-. repeat split; auto.
  - injection E as <- -> -> <- <-. destruct H as [H1 [H3 _]]. apply answer_some in H1. destruct H1 as [H1 H2].
    split; [exact H1|]. split; [right; split; [apply in_rev in H3; exact H3|exact H2]|].
    split; [|split]; [intros q k Hqk|intro Hs; apply N.leb_le in Hs|]; rewrite ?core_store_held, ?Hs.
    + destruct (self =? q) eqn:E1, (key =? k) eqn:E2; rewrite ?andb_false_r; try reflexivity.
      apply N.eqb_eq in E1, E2. destruct Hqk; congruence.
    + rewrite !N.eqb_refl. reflexivity.
    + rewrite core_store_eq, !N.eqb_refl. destruct (vlen v <=? MGR_MAX_VALUE_SIZE); auto.
Qed.

Theorem C03_get_caches_reachable :
  forall ops nodes_reply self selfs_marked selfs_all key init ss' v p reqs cut,
  get nodes_reply self selfs_marked selfs_all key (run ops) init = (ss', GetFound v p, reqs, cut) ->
  held ss' self key = Some v.
Proof.
  intros until cut. intro H. pose proof (C03_get_sound _ _ _ _ _ _ _ _ _ _ _ _ H) as [H1 [_ [_ [H4 _]]]].
  apply H4. eapply C03_size_cap_history. exact H1.
Qed.

(* "ss' holds v at (self, key)" without the size hypothesis is false in unreachable stores *)
Theorem C03_get_cache_unconditional_refuted :
  exists nodes_reply self selfs_marked selfs_all key ss init ss' v p reqs cut,
  get nodes_reply self selfs_marked selfs_all key ss init = (ss', GetFound v p, reqs, cut) /\
  held ss' self key = None /\ ~ AllSmall ss.
Proof.
  exists (fun _ => FVNotFound), 1, [1], [1], 7, [(2, [(7, (9, 600))])], [2],
         [(2, [(7, (9, 600))])], (9, 600), 2, [2], false.
  split; [vm_compute; reflexivity|]. split; [vm_compute; reflexivity|].
  intro H. specialize (H 2 7 (9, 600) eq_refl). vm_compute in H. apply H. reflexivity.
Qed.

(* a key held locally is answered locally, without any request *)
Theorem C03_get_local : forall nodes_reply self selfs_marked selfs_all key ss v init,
  held ss self key = Some v ->
  get nodes_reply self selfs_marked selfs_all key ss init = (ss, GetFound v self, [], false).
Proof. exact get_local. Qed.

(* 5. not-found: no store changes; the local node did not hold the key and neither did any
      peer that was sent a request and answered; unless a budget cut the run, every peer the
      get learned of (initial candidates and every id named in a NodesFound reply) was sent a
      request or is an id of the local node; the counters are exact *)
Theorem C03_get_notfound : forall nodes_reply self selfs_marked selfs_all key ss init ss' q f reqs cut,
  incl selfs_marked selfs_all ->
  get nodes_reply self selfs_marked selfs_all key ss init = (ss', GetNotFoundR q f, reqs, cut) ->
  ss' = ss /\ held ss self key = None /\
  (forall p, In p reqs -> nodes_reply p <> FVFail -> held ss p key = None) /\
  (cut = false -> forall p,
     (In p init \/ exists r l, In r reqs /\ nodes_reply r = FVNodes l /\ In p l) ->
     In p reqs \/ In p selfs_all) /\
  q = N.of_nat (length reqs + length selfs_marked) /\
  f = N.of_nat (length (filter (fun p => is_fail (nodes_reply p)) reqs)).
Proof.
  intros until cut. intro Hm.
  destruct (get_spec nodes_reply self selfs_marked selfs_all key ss init)
    as [[v0 [_ ->]]|[Eh [s [[[v1 p1]|] [[_ H] ->]]]]]; intro E; [discriminate..|].
  injection E as <- <- <- <- <-. destruct H as [HI Hc].
  destruct (GInv_notfound _ _ _ _ _ _ _ HI Hc Hm) as [N1 [N2 [N3 N4]]].
  split; [reflexivity|]. split; [exact Eh|]. split; [|split; [|split]].
  - intros p Hp. apply N1, in_rev, Hp.
  - intros Hcut p Hp. destruct (N2 Hcut p) as [G|G]; [|left; apply in_rev in G; exact G|auto].
    destruct Hp as [Hp|[r [l [Hr Hp]]]]; [auto|]. right. exists r, l. split; [apply in_rev, Hr|exact Hp].
  - rewrite N3, rev_length. reflexivity.
  - rewrite N4, filter_rev, rev_length. reflexivity.
Qed.

(* the query budget: at most GET_MAX_ITERATIONS * GET_ALPHA requests, whatever peers answer *)
Theorem C03_get_request_bound : forall nodes_reply self selfs_marked selfs_all key ss init,
  (length (snd (fst (get nodes_reply self selfs_marked selfs_all key ss init)))
   <= N.to_nat GET_MAX_ITERATIONS * N.to_nat GET_ALPHA)%nat.
Proof.
  intros. destruct (get_spec nodes_reply self selfs_marked selfs_all key ss init)
    as [[v [_ ->]]|[_ [s [r [[H _] ->]]]]]; [cbn; lia|].
  cbn [fst snd ginit g_sent length] in *. rewrite rev_length. exact H.
Qed.

(* ... and, when the initial candidates are distinct and none is a local id, no peer is asked
   twice and the local node (under any of its ids) is never sent a request *)
Theorem C03_get_no_self_no_dup : forall nodes_reply self selfs_marked selfs_all key ss init,
  NoDup init -> (forall p, In p init -> ~ In p selfs_all) ->
  let reqs := snd (fst (get nodes_reply self selfs_marked selfs_all key ss init)) in
  NoDup reqs /\ forall p, In p reqs -> ~ In p selfs_all.
Proof.
  intros until init. intros Hnd Hi.
  destruct (get_spec nodes_reply self selfs_marked selfs_all key ss init)
    as [[v [_ ->]]|[_ [s [r [[_ H] ->]]]]]; [split; [constructor|intros p []]|]. cbn [fst snd].
  assert (Hs : NoDup (g_sent s) /\ forall p, In p (g_sent s) -> ~ In p selfs_all).
  { destruct r as [[v p]|]; [apply H; assumption|apply (gi_wf (proj1 H) Hnd Hi)]. }
  split; [apply NoDup_rev, Hs|]. intros p Hp. apply in_rev in Hp. apply Hs, Hp.
Qed.

(* 6. over every history from arbitrary stores, the bytes a node holds under key k were already held
      under k by some node, or are those of a put / remote PUT of exactly (k, v) (and within the limit) *)
Theorem C03_history_sound_from : forall ss ops p k v,
  held (run_from ss ops) p k = Some v ->
  (exists q, held ss q k = Some v) \/
  (exists pre o post, ops = pre ++ o :: post /\ carries o k v /\ vlen v <= MGR_MAX_VALUE_SIZE).
Proof.
  intros ss ops. apply (run_from_AllP (fun k v => (exists q, held ss q k = Some v) \/ _)).
  - intros o k v Hin Hc Hl. apply in_split in Hin. destruct Hin as [pre [post ->]].
    right. exists pre, o, post. auto.
  - intros p k v H. eauto.
Qed.

(* 6'. from the empty stores only the second case is left *)
Theorem C03_history_sound : forall ops p k v,
  held (run ops) p k = Some v ->
  exists pre o post, ops = pre ++ o :: post /\ carries o k v /\ vlen v <= MGR_MAX_VALUE_SIZE.
Proof.
  intros ops p k v H. apply C03_history_sound_from in H. destruct H as [[q H]|H]; [discriminate|exact H].
Qed.

(* non-vacuity: nodes 1..4; node 4 is silent, node 3 answers lookups but drops PUTs *)
Example C03_example :
  (* node 1 puts (key 7, 100 bytes) with replication 3 knowing peers 2 and 4 *)
  let '(ss1, r1, reqs1) := put ex_keyof ex_reply ex_responsive 1 [1;101] [1;101] 3 [] 7 (42, 100) [2;4] in
  r1 = PutDone 2 [(2, true); (3, false)] /\ reqs1 = [2;4;3] /\
  held ss1 1 7 = Some (42, 100) /\ held ss1 2 7 = Some (42, 100) /\ held ss1 3 7 = None /\ held ss1 4 7 = None /\
  (* node 3 (holds nothing) gets key 7 knowing peers 4 and 2: 4 fails, the replica 2 answers with the bytes *)
  let '(ss2, r2, reqs2, cut2) := get ex_fv 3 [3;103] [3;103] 7 ss1 [4;2] in
  r2 = GetFound (42, 100) 2 /\ reqs2 = [4;2] /\ cut2 = false /\ held ss2 3 7 = Some (42, 100) /\
  (* a key nobody stored: every learned peer (4, 2, then 1 named by 2) is asked, then not-found *)
  let '(ss3, r3, reqs3, cut3) := get ex_fv 3 [3;103] [3;103] 8 ss2 [4;2] in
  ss3 = ss2 /\ r3 = GetNotFoundR 5 1 /\ reqs3 = [4;2;1] /\ cut3 = false /\
  (* a 513-byte value is refused; nothing changes, nothing is sent *)
  put ex_keyof ex_reply ex_responsive 1 [1;101] [1;101] 3 ss2 7 (43, 513) [2;4] = (ss2, PutRefused, []).
Proof. vm_compute. repeat split; reflexivity. Qed.

(* the side conditions of 3' and 5 are satisfiable by that example *)
Example C03_example_hyps :
  NoDup [2;4] /\ (forall p, In p [2;4] -> ~ In p [1;101]) /\ incl [1;101] [1;101] /\ In 1 [1;101] /\
  incl [3;103] [3;103].
Proof.
  split; [repeat constructor; cbn; intuition discriminate|].
  split; [cbn; intuition (subst; discriminate)|]. split; [apply incl_refl|]. split; [left; reflexivity|apply incl_refl].
Qed.
