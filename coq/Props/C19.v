(* C19 — addresses survive every textual round trip the library itself performs.
   Property theorems only; every proof is [exact lemma] or a one-line instantiation.
   Model: Model/Address.v (IPv4 side executable; IPv6 text and the 6/9/12-word codec are oracles).
   The dictionary is Gen/AddressDict.dict, regenerated from the crate's 4096-word list on every run;
   nothing is assumed of it: its bijectivity is proved by evaluating a check of the whole table. *)
From SV Require Import Lib.Base Gen.AddressDict Gen.AddressGlue Gen.AddressConsts Model.Address Proofs.Address.
Local Open Scope N_scope.

(* The numbers and literals the property relies on, proved from what the translator re-read from
   the sources: base 4096, four words, the crate omits port 65535 and the library substitutes
   exactly that port for a bare IP; Display appends " (" words ")"; the consumers and FromStr cut
   at the same " (" literal; hyphen/space normalisation is an involution on word text. *)
Theorem C19_constants :
  CRATE_BASE = 4096 /\ CRATE_WORDS = 4 /\ CRATE_OMIT_PORT = 65535 /\ ADDR_BARE_IP_PORT = CRATE_OMIT_PORT
  /\ length dict = 4096%nat
  /\ display_infix = [32; 40] /\ display_suffix = [41]
  /\ dnm_sep_multiaddr = display_infix /\ dnm_sep_dial = display_infix /\ fromstr_sep = display_infix
  /\ fromstr_close = display_suffix
  /\ ENC_FROM = 32 /\ ENC_TO = 45 /\ DEC_FROM = ENC_TO /\ DEC_TO = ENC_FROM
  /\ ADDR_MULTIADDR_MIN_PARTS = 4.
Proof. repeat split; reflexivity. Qed.

(* the word codec, all 2^48 points (port 65535 included): pure arithmetic *)
Theorem C19_words_roundtrip : forall a, wf4 a ->
  unpack (of_digits (to_digits nwords (pack a))) = a.
Proof. exact words_roundtrip. Qed.

Theorem C19_words_injective : forall a b, wf4 a -> wf4 b ->
  to_digits nwords (pack a) = to_digits nwords (pack b) -> a = b.
Proof. exact digits_injective. Qed.

(* the crate's dictionary is a bijection between 0..4095 and lower-case a-z words *)
Theorem C19_dictionary_bijection : forall i, i < 4096 ->
  word i <> [] /\ forallb is_az (word i) = true /\ lower (word i) = word i /\ get_index (word i) = Some i.
Proof. exact word_facts. Qed.
Theorem C19_dictionary_injective : forall i j, i < 4096 -> j < 4096 -> word i = word j -> i = j.
Proof. exact word_injective. Qed.

Theorem C19_text_roundtrip4 : forall a, wf4 a -> parse4 (print4 a) = Some a.
Proof. exact parse4_print4. Qed.

(* C19_reject: the parser is total and its accepted language is EXACTLY: four decimal octets
   (1-3 digits, no redundant leading zero, <= 255) separated by dots, a colon, a decimal port
   (any number of leading zeros, <= 65535), each denoting the corresponding field.  Every other
   string is rejected; no string is read as an address it does not denote. *)
Theorem C19_reject : forall s a, parse4 s = Some a <-> Rendering s a.
Proof. exact parse4_iff. Qed.
Theorem C19_reject_ip : forall s o, parse_ip4 s = Some o <-> RenderingIp s o.
Proof. exact parse_ip4_iff. Qed.
Theorem C19_accepted_is_wellformed : forall s a, parse4 s = Some a -> wf4 a.
Proof. exact parse4_wf. Qed.
(* a rendering followed by anything that is not a digit is rejected as a whole *)
Theorem C19_reject_trailing : forall a c rest, wf4 a -> is_digit c = false -> parse4 (print4 a ++ c :: rest) = None.
Proof. exact parse4_print4_junk. Qed.

(* the four-word form through the library's textual glue *)
Theorem C19_from_four_words_roundtrip : forall a, wf4 a -> from_four_words (words_of a) = R4 a.
Proof. exact from_four_words_roundtrip. Qed.

(* all single-separator (space / hyphen, mixed) and ASCII-case variants of the word form *)
Theorem C19_word_variants : forall a w0 w1 w2 w3 s1 s2 s3, wf4 a ->
  (s1 = 32 \/ s1 = 45) -> (s2 = 32 \/ s2 = 45) -> (s3 = 32 \/ s3 = 45) ->
  wordlike w0 -> wordlike w1 -> wordlike w2 -> wordlike w3 ->
  map lower [w0; w1; w2; w3] = map word (to_digits nwords (pack a)) ->
  from_four_words (w0 ++ s1 :: w1 ++ s2 :: w2 ++ s3 :: w3) = R4 a.
Proof. exact from_four_words_variants. Qed.

Theorem C19_display_fromstr : forall a, wf4 a -> from_str (display a) = R4 a.
Proof. exact from_str_of_display. Qed.

(* every consumer of a rendered string reads the same socket address *)
Theorem C19_consumers_agree : forall a, wf4 a ->
  consumer_strip dnm_sep_dial (display a) = R4 a
  /\ consumer_strip dnm_sep_multiaddr (display a) = R4 a
  /\ multiaddr_from_address (display a) = (if is_unspecified a then RNone else R4 a)
  /\ add_node_ip (display a) = Some (a1 a, a2 a, a3 a, a4 a)
  /\ add_node_ip (print4 a) = Some (a1 a, a2 a, a3 a, a4 a)
  /\ id_decode (words_of a) = R4 a.
Proof.
  intros a H. destruct (consumer_strip_display a H) as [H1 H2]. destruct (add_node_ip_plain a H) as [H3 _].
  repeat split; auto using multiaddr_from_address_display, add_node_ip_display, id_decode_words.
Qed.

(* on ARBITRARY strings: whatever both FromStr (socket / own-rendering alternatives) and a
   suffix-stripping consumer accept, they read as the same address *)
Theorem C19_consumers_never_disagree : forall s a b,
  orelse (parse_sock s) (from_str_display s) = R4 a -> consumer_strip [32; 40] s = R4 b -> a = b.
Proof. exact strip_agrees_with_fromstr. Qed.

(* any address family (IPv6 is an instance under these three oracle hypotheses, which the
   harness samples; IPv4 is proved above): Display then FromStr / the consumers give the address back *)
Theorem C19_display_fromstr_generic :
  forall (A : Type) (prt : A -> str) (prs : str -> res) (inj : A -> res) (wrd : A -> str),
  (forall a, prs (prt a) = inj a) ->
  (forall a, contains 32 (prt a) = false) ->
  (forall a r, prs (prt a ++ 32 :: r) = RNone) ->
  forall a, inj a <> RNone -> from_str_head_g prs (display_g A prt wrd a) = inj a.
Proof. exact display_fromstr_g. Qed.

Theorem C19_consumers_agree_generic :
  forall (A : Type) (prt : A -> str) (prs : str -> res) (inj : A -> res) (wrd : A -> str),
  (forall a, prs (prt a) = inj a) ->
  (forall a, contains 32 (prt a) = false) ->
  forall a, prs (before_first dnm_sep_dial (display_g A prt wrd a)) = inj a
            /\ prs (before_first dnm_sep_multiaddr (display_g A prt wrd a)) = inj a.
Proof. exact consumer_strip_g. Qed.

Example C19_example_port_65535 :
  let a := mkA 255 255 255 255 65535 in
  wf4 a /\ to_digits nwords (pack a) = [4095; 4095; 4095; 4095]
  /\ from_four_words (words_of a) = R4 a /\ from_str (display a) = R4 a.
Proof. vm_compute. repeat split; reflexivity. Qed.

Example C19_example_rejects :
  parse4 [48; 49; 46; 50; 46; 51; 46; 52; 58; 56; 48] = None          (* "01.2.3.4:80" *)
  /\ parse4 [49; 46; 50; 46; 51; 46; 52; 58; 48; 56; 48] = Some (mkA 1 2 3 4 80)   (* "1.2.3.4:080" *)
  /\ parse4 [49; 46; 50; 46; 51; 46; 52; 58; 54; 53; 53; 51; 54] = None   (* "1.2.3.4:65536" *)
  /\ from_str [49; 46; 50; 46; 51; 46; 52; 58; 56; 48; 32; 40] = RNone   (* "1.2.3.4:80 (" *)
  /\ from_str [] = RNone.
Proof. vm_compute. repeat split; reflexivity. Qed.

Example C19_example_family_v4 :
  (forall a : wf_addr, parse_sock (print4 (proj1_sig a)) = R4 (proj1_sig a))
  /\ (forall a : wf_addr, contains 32 (print4 (proj1_sig a)) = false)
  /\ (forall (a : wf_addr) r, parse_sock (print4 (proj1_sig a) ++ 32 :: r) = RNone).
Proof.
  repeat split; intros [a H]; cbn [proj1_sig];
    [apply parse_sock_print4, H | apply v4_no_space, H | intro r; apply parse_sock_print4_junk; [exact H|reflexivity]].
Qed.
