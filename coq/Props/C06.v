(* C06 — acknowledged state survives a crash at any point; recovery is a prefix.
   Property theorems; the lemmas and invariants behind them are in Proofs/Wal.v, and
   a theorem that is a short corollary is proved here.  Model: Model/Wal.v
   (byte-granular file-system actions; a crash = any prefix of the actions with the
   last append cut at any byte).  The codecs and the MAC are universally
   quantified; the codec hypotheses (decode inverts encode, encodings fit the u32
   length prefix) stay visible in every statement that depends on them.  Crash = the process dies: what
   has been handed to the OS survives (page cache / power loss are outside the model). *)
From SV Require Import Lib.Base Gen.WalConsts Model.Wal Proofs.Wal.
Local Open Scope N_scope.

(* the numbers recovery and rotation rely on, proved from the regenerated constants *)
Theorem C06_constants :
  WAL_MAX_ENTRIES = 1000 /\ WAL_MAX_SIZE = 10485760 /\ 1 <= WAL_SNAPSHOT_RETENTION /\ WAL_HMAC_KEY_LEN = 32 /\ WAL_VERSION < 256.
Proof. repeat split; try reflexivity. exact retention_pos. Qed.

(* Framing: complete records followed by nothing parse to exactly the records;
   followed by a torn tail they parse to the records plus the torn marker; and any
   non-empty strict prefix of a record IS a torn tail (every byte cut of a write). *)
Theorem wal_parse_frames : forall bodies, Forall small bodies ->
  parse (frames bodies) = (bodies, false) /\
  (forall t, torn t -> parse (frames bodies ++ t) = (bodies, true)) /\
  (forall body n, small body -> (0 < n < length (frame body))%nat -> torn (firstn n (frame body))).
Proof.
  intros bodies H. split; [exact (parse_exact bodies H)|].
  split; [intros t Ht; exact (parse_torn_tail bodies t H Ht) | exact strict_prefix_torn].
Qed.

(* replaying a suffix of a history on top of its own result changes nothing: why
   logs that overlap a snapshot are harmless *)
Theorem C06_replay_suffix_idempotent : forall l1 l2 st,
  apply_changes (apply_changes st (l1 ++ l2)) l2 ≈ apply_changes st (l1 ++ l2).
Proof.
  intros l1 l2 st. pose proof (replay_overlap st l1 l2 [] _ (steq_refl _)) as H. rewrite !app_nil_r in H. exact H.
Qed.

Section C06.
  Variable deser : bytes -> option entry.
  Variable mac : bytes -> bytes.
  Variable val_ok : bytes -> bool.
  Variable dec_changes : bytes -> option (list change).
  Variable deser_hdr : bytes -> option snaphdr.
  Variable dec_map : bytes -> option state.
  Variable ser : entry -> bytes.
  Variable enc_changes : list change -> bytes.
  Variable ser_hdr : snaphdr -> bytes.
  Variable enc_map : state -> bytes.
  (* codec assumptions: decoding inverts encoding; encodings fit the u32 length prefix *)
  Hypothesis Hser : forall e, deser (ser e) = Some e.
  Hypothesis Hser_small : forall e, small (ser e).
  Hypothesis Hchg : forall cs, dec_changes (enc_changes cs) = Some cs.
  Hypothesis Hhdr : forall h, deser_hdr (ser_hdr h) = Some h.
  Hypothesis Hhdr_small : forall h, small (ser_hdr h).
  Hypothesis Hmap : forall st, exists st', dec_map (enc_map st) = Some st' /\ st' ≈ st.

  Notation recover := (recover deser mac val_ok dec_changes deser_hdr dec_map).
  Notation DInv := (DInv mac val_ok dec_changes deser_hdr dec_map ser).
  Notation DInvG := (DInvG mac val_ok dec_changes deser_hdr dec_map ser).
  Notation WInv := (WInv mac val_ok dec_changes deser_hdr dec_map ser).
  Notation genuine := (genuine mac val_ok dec_changes).
  Notation eff := (eff val_ok dec_changes).
  Notation op_actions := (op_actions deser mac ser enc_changes ser_hdr enc_map).
  Notation run_ops := (run_ops deser mac ser enc_changes ser_hdr enc_map).
  Notation crash_disk := (crash_disk deser mac ser enc_changes ser_hdr enc_map).
  Notation open_wstate := (open_wstate deser mac val_ok dec_changes deser_hdr dec_map).
  Notation run_cycles := (run_cycles deser mac val_ok dec_changes deser_hdr dec_map ser enc_changes ser_hdr enc_map).
  Notation cycles_ok := (cycles_ok deser mac val_ok dec_changes deser_hdr dec_map ser enc_changes ser_hdr enc_map).

  (* The disk invariant determines what recovery returns: the committed state M, and
     exactly the transaction counter C (the largest id on disk). *)
  Theorem C06_recovery_of_invariant : forall d M C, DInv d M C ->
    r_state (recover d) ≈ M /\ r_ctr (recover d) = C.
  Proof. exact (recover_DInv deser mac val_ok dec_changes deser_hdr dec_map ser Hser Hser_small). Qed.

  (* The empty directory (after state.wal has been created) satisfies it. *)
  Theorem C06_init : WInv (exec disk0 [ACreate FWal]) (mkW [] 0 0 0) [] 0.
  Proof.
    split; [|split; [reflexivity | split; [cbn; eauto | intro; reflexivity]]].
    apply (DInvG_intro mac val_ok dec_changes deser_hdr dec_map ser _ [] [] [] 0).
    - (* an empty state.wal, no rotated log *)
      split; [reflexivity|]. split; [constructor|]. split; [left; reflexivity|]. split; [left; reflexivity | constructor].
    - (* no snapshot *) split; [constructor | split; reflexivity].
    - (* no record *)
      split; [exists [], [], [], []; repeat split; constructor|]. split; [constructor|]. split; [constructor|]. split; reflexivity.
  Qed.

  (* EVERY crash cut of one logged write - between or inside the two writes of the
     record (any byte), after it, between the steps of the rotation that may follow -
     leaves a disk that recovers either the state before the write or the state
     after it. *)
  Theorem C06_write_cuts : forall d w M C e y rot a b,
    DInvG d M C [] -> d_wal d = Some y -> genuine e -> C < e_txid e ->
    let d' := exec d (cut (fst (write_actions ser d w e rot)) a b) in
    DInv d' M C \/ DInv d' (apply_changes M (eff e)) (e_txid e).
  Proof.
    intros d w M C e y rot a b HI Hy Hg Hlt.
    eapply steps_cut, write_steps; eauto using steq_refl.
  Qed.

  (* Rotation steps preserve the invariant (rename to the next free sequence number,
     then re-creation of state.wal). *)
  Theorem C06_rotation_steps : forall d M C y, DInvG d M C [] -> d_wal d = Some y ->
    let d1 := exec1 d (ARename FWal (FRot (next_seq d))) in
    DInvG d1 M C [] /\ d_wal d1 = None /\ DInvG (exec1 d1 (ACreate FWal)) M C [].
  Proof.
    intros d M C y HI Hy d1. edestruct step_rotate as [H1 Hn]; eauto. edestruct step_create_wal as [H2 _]; eauto.
  Qed.

  (* EVERY crash cut of a checkpoint - temporary file created, header written, data
     written (any byte), renamed into place, each covered log removed, each old
     snapshot pruned - recovers the same committed state M; the counter is the old
     one before the rename and the writer's counter after it.  The complete
     checkpoint leaves a clean log and the snapshot named ts as the newest. *)
  Theorem C06_checkpoint_steps : forall d w M C ts a b, WInv d w M C -> snap_hi d <= ts ->
    let acts := fst (op_actions d w (OCheckpoint ts)) in
    (DInv (exec d (cut acts a b)) M C \/ DInv (exec d (cut acts a b)) M (w_ctr w)) /\
    DInvG (exec d acts) M (w_ctr w) [] /\ d_wal (exec d acts) = d_wal d /\ snap_hi (exec d acts) = ts.
  Proof.
    intros d w M C ts a b HW Hts acts.
    eassert (Hst : steps _ _ d acts) by (eapply checkpoint_steps; eauto).
    exact (conj (steps_cut _ _ _ _ Hst a b) (steps_end _ _ _ _ Hst)).
  Qed.

  (* One operation of any kind (upsert, delete, batch, rolled-back batch, checkpoint):
     afterwards writer and disk agree on the new state with a counter that did not go
     down, and every crash cut inside it recovers the old or the new state. *)
  Theorem C06_operation_step : forall d w M C o, WInv d w M C -> mem_ok val_ok M -> op_ok val_ok d o ->
    exists C', C <= C' /\
      WInv (exec d (fst (op_actions d w o))) (snd (op_actions d w o)) (apply_op M o) C' /\
      snap_hi (exec d (fst (op_actions d w o))) = match o with OCheckpoint ts => ts | _ => snap_hi d end /\
      forall a b, DInv (exec d (cut (fst (op_actions d w o)) a b)) M C \/
                  DInv (exec d (cut (fst (op_actions d w o)) a b)) (apply_op M o) C'.
  Proof.
    intros d w M C o HW HM Ho. edestruct op_steps as (C' & HC & Hst); eauto. exists C'.
    destruct (steps_end _ _ _ _ Hst) as [HW' Hsn]. exact (conj HC (conj HW' (conj Hsn (steps_cut _ _ _ _ Hst)))).
  Qed.

  (* PREFIX.  For ALL histories of upsert / delete / batch / rolled-back batch /
     checkpoint operations (ops_ok: stored values decode, checkpoint file names do not
     go backwards), from any state satisfying the invariant, and EVERY crash point
     (operation i, a whole file-system actions of it, b bytes of its next append):
     the recovered state is the start state advanced by the first j operations with
     i <= j <= i+1 - every acknowledged operation (the first i) is included, nothing
     beyond the issued ones - and the recovered counter is not below the start counter. *)
  Theorem C06_prefix : forall ops d w M C hi i a b,
    WInv d w M C -> mem_ok val_ok M -> snap_hi d <= hi -> ops_ok val_ok hi ops ->
    exists j, (i <= j <= S i)%nat /\
      r_state (recover (crash_disk d w ops i a b)) ≈ apply_ops M (firstn j ops) /\
      C <= r_ctr (recover (crash_disk d w ops i a b)).
  Proof.
    intros ops d w M C hi i a b HW HMok Hhi Hok.
    edestruct crash_prefix as (j & C' & Hj & HC & HD & _); eauto.
    destruct (C06_recovery_of_invariant _ _ _ HD) as [H1 H2]. exists j. rewrite H2. eauto.
  Qed.

  (* CLEAN RESTART reproduces the full state. *)
  Theorem C06_clean_restart : forall ops d w M C hi,
    WInv d w M C -> mem_ok val_ok M -> snap_hi d <= hi -> ops_ok val_ok hi ops ->
    r_state (recover (fst (run_ops d w ops))) ≈ apply_ops M ops.
  Proof.
    intros ops d w M C hi HW HMok Hhi Hok.
    destruct (C06_prefix ops d w M C hi (length ops) 0 0 HW HMok Hhi Hok) as (j & Hj & H & _).
    rewrite firstn_all2 in H by lia. unfold Model.Wal.crash_disk in H. rewrite firstn_all in H.
    destruct (run_ops d w ops) as [d1 w1].
    replace (nth_error ops (length ops)) with (@None op) in H by (symmetry; apply nth_error_None; lia).
    exact H.
  Qed.

  (* OPENING a directory left by any crash (create state.wal if missing, recover, cut
     the torn tail) re-establishes the writer invariant with the same state and counter. *)
  Theorem C06_open : forall d M C, DInv d M C -> WInv (open_disk d) (open_wstate d) M C.
  Proof. exact (open_WInv deser mac val_ok dec_changes deser_hdr dec_map ser enc_map Hser Hser_small Hmap). Qed.

  (* REPEATED CRASH / REOPEN CYCLES (induction on cycles): after any number of cycles,
     each one crashing at an arbitrary point, the recovered state is the initial state
     advanced, cycle by cycle, by a prefix of that cycle's operations (acked <= j <=
     issued), and the TRANSACTION COUNTER NEVER MOVES BACKWARDS across the restarts. *)
  Theorem C06_cycles_txid_monotone : forall cs d M C, DInv d M C -> mem_ok val_ok M -> cycles_ok d cs ->
    exists M', survives M cs M' /\ r_state (recover (run_cycles d cs)) ≈ M' /\
               r_ctr (recover d) <= r_ctr (recover (run_cycles d cs)).
  Proof.
    intros cs d M C HD HMok Hok. edestruct cycles_prefix as (M' & C' & HC & HD' & Hsv); eauto.
    destruct (C06_recovery_of_invariant _ _ _ HD) as [_ H0]. destruct (C06_recovery_of_invariant _ _ _ HD') as [H1 H2].
    exists M'. rewrite H0, H2. auto.
  Qed.
End C06.

(* The batch record: applying the sorted difference between the old and the new map
   to (any state equivalent to) the old map gives the new map - what recovery does
   with the single Batch record equals what batch_update did in memory. *)
Theorem C06_batch_record_is_the_batch : forall before after M, before ≈ M ->
  apply_changes M (batch_diff before after) ≈ after.
Proof. exact batch_diff_apply. Qed.

(* The incremental evaluator [walk] that the generated case files run is the model of
   the theorems: it returns the crash disk of [crash_disk] for the continuation point
   and, when it answers true, every probe's observation equals the model's answer on
   the crash disk of [crash_disk] for that probe's point. *)
Theorem C06_case_evaluator_is_crash_disk : forall ops mac d w idx probes nxt,
  (forall i a b, nxt = (idx + N.of_nat i, a, b) -> (i <= length ops)%nat ->
     snd (walk mac d w ops idx probes nxt) =
     crash_disk pc_deser mac pc_ser pc_enc_changes pc_ser_hdr pc_enc_map d w ops i a b) /\
  (fst (walk mac d w ops idx probes nxt) = true ->
     forall i a b o, In (idx + N.of_nat i, a, b, o) probes -> (i <= length ops)%nat ->
       obs_ok mac (crash_disk pc_deser mac pc_ser pc_enc_changes pc_ser_hdr pc_enc_map d w ops i a b) o = true).
Proof.
  (* the probes of the operation at hand are those at [idx + 0] *)
  assert (Hat : forall mac d acts idx probes a b o, probes_at mac d acts idx probes = true ->
            In (idx + N.of_nat 0, a, b, o) probes -> obs_ok mac (exec d (cut acts a b)) o = true).
  { intros mac d acts idx probes a b o H Hin. unfold probes_at in H. rewrite forallb_forall in H.
    specialize (H _ Hin). cbn in H. rewrite N.add_0_r, N.eqb_refl in H. exact H. }
  induction ops as [|op tl IH]; intros mac d w idx probes nxt; cbn [walk].
  - split; [intros i a b _ Hi | intros Hok i a b o Hin Hi]; assert (i = 0)%nat by (cbn in Hi; lia); subst i; [reflexivity|].
    apply (Hat _ _ _ _ _ a b o) in Hok; [|exact Hin]. rewrite cut_nil in Hok. exact Hok.
  - pose proof (crash_disk_cons pc_deser mac pc_ser pc_enc_changes pc_ser_hdr pc_enc_map d w op tl) as HS.
    fold (x_op_actions mac d w op) in HS. destruct (x_op_actions mac d w op) as [acts w'].
    specialize (IH mac (exec d acts) w' (idx + 1) probes nxt).
    destruct (walk mac (exec d acts) w' tl (idx + 1) probes nxt) as [ok_rest dn].
    cbn [fst snd] in *. destruct IH as [IH1 IH2]. split.
    + intros i a b -> Hi. rewrite HS. destruct i as [|i].
      * rewrite N.add_0_r, N.eqb_refl. reflexivity.
      * replace (idx + N.of_nat (S i) =? idx) with false by lia.
        apply IH1; [f_equal; f_equal; lia | cbn in Hi; lia].
    + intros [Hhere Hrest]%andb_true_iff i a b o Hin Hi. rewrite HS. destruct i as [|i].
      * exact (Hat _ _ _ _ _ a b o Hhere Hin).
      * apply (IH2 Hrest i a b o); [|cbn in Hi; lia].
        replace (idx + 1 + N.of_nat i) with (idx + N.of_nat (S i)) by lia. exact Hin.
Qed.

(* non-vacuity: the concrete postcard codec satisfies the decode-after-encode
   hypotheses on sample values (the harness compares it with the real bytes on every
   run), a history with a batch and a checkpoint satisfies ops_ok, and a
   two-operation history cut inside the second record recovers exactly the first
   operation and reports the torn tail *)
Example C06_example :
  let e := mk_entry mac_cheap 7 1700000000 TUpsert [107; 49] (Some [2; 9; 9]) in
  pc_deser (pc_ser e) = Some e /\
  pc_dec_changes (pc_enc_changes [([107], Some [1; 5]); ([108], None)]) = Some [([107], Some [1; 5]); ([108], None)] /\
  (let h := mkHdr 1 1700000000 7 2 9 (repeat 0 32) in pc_deser_hdr (pc_ser_hdr h) = Some h) /\
  pc_dec_map (pc_enc_map [([107], [1; 5]); ([108], [0])]) = Some [([108], [0]); ([107], [1; 5])] /\
  let ops := [OUpsert 1700000000 [107; 49] [1; 5]; ODelete 1700000001 [107; 49]] in
  let d0 := exec disk0 [ACreate FWal] in
  let dc := crash_disk pc_deser mac_cheap pc_ser pc_enc_changes pc_ser_hdr pc_enc_map d0 (mkW [] 0 0 0) ops 1 0 17 in
  r_state (x_recover mac_cheap dc) = [([107; 49], [1; 5])] /\
  s_events (r_stats (x_recover mac_cheap dc)) = [EvTorn].
Proof. vm_compute. repeat split; reflexivity. Qed.

Example C06_ops_ok_example :
  ops_ok pc_val_ok 0 [OUpsert 1700000000 [107; 49] [1; 5]; OBatch 1700000000 [([107], Some [1; 5]); ([108], None)];
                      OCheckpoint 1700000001; OBatchFail; ODelete 1700000002 [107; 49]; OCheckpoint 1700000001].
Proof.
  cbn [ops_ok]. split; [reflexivity|]. split; [|split; [lia|split; [lia | exact I]]].
  intros k v [H | [H | []]]; inv H. reflexivity.
Qed.
