(* XOR-distance lemmas on N, shared by the routing / lookup / selection models.

   A 256-bit key ([u8;32] in the Rust code) is the natural number whose big-endian
   digits are the bytes.  [be_compare] : comparing two 32-byte arrays
   lexicographically (what [u8;32]::cmp does) is comparing those numbers.
   [dist k a = N.lxor a k] is the Kademlia distance of [a] to the key [k]; it is
   injective in [a], so a list sorted by distance to a fixed key is unique.
   [bucket_index l a] = index of the first (most significant) bit in which [a]
   differs from [l], 255 when they are equal (Rust: get_bucket_index). *)
From SV Require Import Lib.Base.
Local Open Scope N_scope.

Definition KEY_BITS : N := 256.
Definition KEY_LIMIT : N := 2 ^ 256.
Definition key_okb (a : N) : bool := a <? KEY_LIMIT.
Definition key_ok (a : N) : Prop := a < KEY_LIMIT.

Definition dist (k a : N) : N := N.lxor a k.

Fixpoint of_be_acc (acc : N) (bs : list N) : N :=
  match bs with [] => acc | b :: tl => of_be_acc (acc * 256 + b) tl end.
Definition of_be (bs : list N) : N := of_be_acc 0 bs.

(* lexicographic comparison of two byte strings, as [T; N]::cmp / slice::cmp *)
Fixpoint lex_compare (a b : list N) : comparison :=
  match a, b with
  | [], [] => Eq
  | [], _ :: _ => Lt
  | _ :: _, [] => Gt
  | x :: a', y :: b' => match x ?= y with Eq => lex_compare a' b' | c => c end
  end.

Definition bytes_ok (bs : list N) : Prop := Forall (fun b => b < 256) bs.

Lemma of_be_acc_bound : forall bs acc, bytes_ok bs ->
  acc * 256 ^ N.of_nat (length bs) <= of_be_acc acc bs < (acc + 1) * 256 ^ N.of_nat (length bs).
Proof.
  induction bs as [|b tl IH]; intros acc Hb.
  - cbn [length of_be_acc]. change (N.of_nat 0) with 0. rewrite N.pow_0_r. lia.
  - inversion Hb as [|? ? Hlt Htl]; subst.
    cbn [of_be_acc]. specialize (IH (acc * 256 + b) Htl).
    replace (N.of_nat (length (b :: tl))) with (N.succ (N.of_nat (length tl))) by (cbn [length]; lia).
    rewrite N.pow_succ_r'. nia.
Qed.

(* one more digit: the heads decide unless they are equal *)
Lemma compare_digit : forall a1 a2 x y, x < 256 -> y < 256 ->
  a1 * 256 + x ?= a2 * 256 + y = match a1 ?= a2 with Eq => x ?= y | c => c end.
Proof.
  intros a1 a2 x y Hx Hy. destruct (N.compare_spec a1 a2) as [->|E|E].
  - destruct (N.compare_spec x y) as [->|F|F];
      [apply N.compare_refl|apply N.compare_lt_iff; lia|apply N.compare_gt_iff; lia].
  - apply N.compare_lt_iff. lia.
  - apply N.compare_gt_iff. lia.
Qed.

Lemma of_be_acc_compare : forall a b acc1 acc2, bytes_ok a -> bytes_ok b -> length a = length b ->
  of_be_acc acc1 a ?= of_be_acc acc2 b =
  match acc1 ?= acc2 with Eq => lex_compare a b | c => c end.
Proof.
  induction a as [|x a IH]; intros [|y b] acc1 acc2 Ha Hb Hlen; try discriminate.
  { cbn [of_be_acc lex_compare]. destruct (acc1 ?= acc2); reflexivity. }
  inversion Ha as [|? ? Hx Ha']; inversion Hb as [|? ? Hy Hb']; subst.
  cbn [of_be_acc lex_compare]. injection Hlen as Hlen.
  rewrite (IH b _ _ Ha' Hb' Hlen), (compare_digit _ _ _ _ Hx Hy). destruct (acc1 ?= acc2); reflexivity.
Qed.

(* [u8;32]::cmp on two arrays = comparison of the big-endian integers *)
Lemma be_compare : forall a b, bytes_ok a -> bytes_ok b -> length a = length b ->
  of_be a ?= of_be b = lex_compare a b.
Proof. intros a b. exact (of_be_acc_compare a b 0 0). Qed.

Lemma of_be_32_key_ok : forall a, bytes_ok a -> length a = 32%nat -> key_ok (of_be a).
Proof.
  intros a Ha Hl. unfold key_ok, of_be. pose proof (of_be_acc_bound a 0 Ha) as [_ H].
  rewrite Hl in H. change (N.of_nat 32) with 32 in H.
  change ((0 + 1) * 256 ^ 32) with KEY_LIMIT in H. exact H.
Qed.

Lemma lxor_cancel_r : forall a k, N.lxor (N.lxor a k) k = a.
Proof. intros. rewrite N.lxor_assoc, N.lxor_nilpotent, N.lxor_0_r. reflexivity. Qed.

Lemma dist_inj : forall k a b, dist k a = dist k b -> a = b.
Proof.
  unfold dist. intros k a b H.
  rewrite <- (lxor_cancel_r a k), H, lxor_cancel_r. reflexivity.
Qed.

Lemma dist_self : forall k, dist k k = 0.
Proof. intros. apply N.lxor_nilpotent. Qed.

Lemma dist_0_iff : forall k a, dist k a = 0 <-> a = k.
Proof. intros. apply N.lxor_eq_0_iff. Qed.

Lemma dist_sym : forall k a, dist k a = dist a k.
Proof. intros. apply N.lxor_comm. Qed.

Lemma dist_via : forall l k a, dist k a = N.lxor (N.lxor l a) (N.lxor l k).
Proof.
  unfold dist. intros l k a.
  rewrite (N.lxor_comm l a), N.lxor_assoc, <- (N.lxor_assoc l l k), N.lxor_nilpotent, N.lxor_0_l.
  reflexivity.
Qed.

Lemma testbit_true_le_log2 : forall a n, N.testbit a n = true -> n <= N.log2 a.
Proof.
  intros a n H. destruct (N.le_gt_cases n (N.log2 a)) as [L|L]; [exact L|].
  rewrite (N.bits_above_log2 a n L) in H. discriminate.
Qed.

(* ultrametric law: the xor of two numbers of different bit length has the larger length *)
Lemma log2_lxor_lt : forall x y, N.log2 x < N.log2 y -> N.log2 (N.lxor x y) = N.log2 y.
Proof.
  intros x y H.
  assert (Hy : y <> 0) by (intro; subst; cbn in H; lia).
  apply N.le_antisymm.
  - pose proof (N.log2_lxor x y). lia.
  - apply testbit_true_le_log2. rewrite N.lxor_spec, (N.bits_above_log2 x _ H), (N.bit_log2 y Hy). reflexivity.
Qed.

(* ... and two numbers of the same bit length cancel their top bit *)
Lemma lxor_same_log2 : forall x y, x <> 0 -> y <> 0 -> N.log2 x = N.log2 y -> N.lxor x y < 2 ^ N.log2 x.
Proof.
  intros x y Hx Hy H.
  destruct (N.eq_dec (N.lxor x y) 0) as [E|E].
  - rewrite E. apply N.neq_0_lt_0, N.pow_nonzero. lia.
  - apply N.log2_lt_pow2; [lia|].
    pose proof (N.log2_lxor x y) as Hm.
    destruct (N.eq_dec (N.log2 (N.lxor x y)) (N.log2 x)) as [F|F]; [|lia].
    exfalso. pose proof (N.bit_log2 _ E) as B.
    rewrite F, N.lxor_spec, (N.bit_log2 x Hx), H, (N.bit_log2 y Hy) in B. discriminate.
Qed.

Lemma pow2_le_of_log2 : forall a n, a <> 0 -> n <= N.log2 a -> 2 ^ n <= a.
Proof. intros a n Ha H. apply N.log2_le_pow2; [lia|exact H]. Qed.

Lemma lt_pow2_of_log2 : forall a n, N.log2 a < n -> a < 2 ^ n.
Proof.
  intros a n H. destruct (N.eq_dec a 0) as [E|E].
  - subst. apply N.neq_0_lt_0, N.pow_nonzero. lia.
  - apply N.log2_lt_pow2; [lia|exact H].
Qed.

Lemma log2_key : forall a, key_ok a -> N.log2 a < 256.
Proof.
  intros a H. destruct (N.eq_dec a 0) as [->|E]; [reflexivity|]. apply N.log2_lt_pow2; [lia|exact H].
Qed.

Lemma lxor_key_ok : forall a b, key_ok a -> key_ok b -> key_ok (N.lxor a b).
Proof.
  intros a b Ha Hb. apply lt_pow2_of_log2.
  pose proof (N.log2_lxor a b). pose proof (log2_key a Ha). pose proof (log2_key b Hb). lia.
Qed.

(* Rust (get_bucket_index / get_bucket_index_for_key): first i in 0..256 with bit i
   (counted from the most significant bit of byte 0) of local^id set; 255 if none. *)
Definition bucket_index (l a : N) : N :=
  let x := N.lxor l a in
  if x =? 0 then 255 else 255 - N.log2 x.

(* the loop as written in the Rust source *)
Fixpoint first_set_from (x : N) (i : N) (fuel : nat) : N :=
  match fuel with
  | O => 255
  | S f => if N.testbit x (255 - i) then i else first_set_from x (i + 1) f
  end.
Definition bucket_index_loop (l a : N) : N := first_set_from (N.lxor l a) 0 256.

Lemma first_set_from_spec : forall fuel x i, x <> 0 -> N.of_nat fuel + i = 256 ->
  N.log2 x + i <= 255 -> first_set_from x i fuel = 255 - N.log2 x.
Proof.
  induction fuel as [|f IH]; intros x i Hx Hf Hge.
  - exfalso. lia.
  - cbn [first_set_from].
    destruct (N.testbit x (255 - i)) eqn:T.
    + apply testbit_true_le_log2 in T. lia.
    + apply IH; [exact Hx|lia|].
      assert (255 - i <> N.log2 x) by (intro E; rewrite E, (N.bit_log2 x Hx) in T; discriminate).
      lia.
Qed.

(* no bit of 0 is set *)
Lemma first_set_from_zero : forall fuel i, first_set_from 0 i fuel = 255.
Proof. induction fuel as [|f IH]; intro i; cbn [first_set_from]; [reflexivity|]. rewrite N.bits_0. apply IH. Qed.

Lemma bucket_index_loop_eq : forall l a, key_ok l -> key_ok a -> bucket_index_loop l a = bucket_index l a.
Proof.
  intros l a Hl Ha. unfold bucket_index_loop, bucket_index.
  destruct (N.eqb_spec (N.lxor l a) 0) as [E|E].
  - rewrite E. apply first_set_from_zero.
  - apply first_set_from_spec; [exact E|reflexivity|].
    pose proof (log2_key _ (lxor_key_ok l a Hl Ha)). lia.
Qed.

Lemma bucket_index_log2 : forall l a, bucket_index l a = 255 - N.log2 (N.lxor l a).
Proof. intros. unfold bucket_index. destruct (N.eqb_spec (N.lxor l a) 0) as [E|_]; [rewrite E|]; reflexivity. Qed.

Lemma bucket_index_le : forall l a, bucket_index l a <= 255.
Proof. intros. rewrite bucket_index_log2. lia. Qed.

Lemma bucket_index_self : forall l, bucket_index l l = 255.
Proof. intros. unfold bucket_index. rewrite N.lxor_nilpotent. reflexivity. Qed.

(* the longer of two numbers of different bit length keeps its top bit in the xor *)
Lemma pow2_le_lxor : forall x y, N.log2 x < N.log2 y -> 2 ^ N.log2 y <= N.lxor x y.
Proof.
  intros x y H. apply pow2_le_of_log2; [|rewrite (log2_lxor_lt x y H); lia].
  intro Z. apply (proj1 (N.lxor_eq_0_iff x y)) in Z. subst. lia.
Qed.

Section BucketDistance.
  (* l = local id, k = target key, w/x = stored ids.  The distance of x to k is the xor of
     l^x and l^k (dist_via), whose bit lengths the bucket indices of x and k give. *)
  Variables l k : N.
  Hypothesis Hl : key_ok l.
  Hypothesis Hk : key_ok k.

  Let top_le : forall a, key_ok a -> N.log2 (N.lxor l a) <= 255.
  Proof. intros a Ha. pose proof (log2_key _ (lxor_key_ok l a Hl Ha)). lia. Qed.

  Lemma dist_lower_bucket : forall x, key_ok x -> x <> l ->
    bucket_index l x < bucket_index l k ->
    2 ^ (255 - bucket_index l x) <= dist k x.
  Proof using Hl Hk.
    intros x Hx _. rewrite !bucket_index_log2, (dist_via l k x), (N.lxor_comm (N.lxor l x)). intro Hlt.
    pose proof (top_le x Hx). replace (255 - (255 - N.log2 (N.lxor l x))) with (N.log2 (N.lxor l x)) by lia.
    apply pow2_le_lxor. lia.
  Qed.

  Lemma dist_upper_bound : forall x, key_ok x -> x <> l ->
    dist k x < 2 ^ (256 - N.min (bucket_index l x) (bucket_index l k)).
  Proof.
    intros x Hx _. rewrite !bucket_index_log2, (dist_via l k x). apply lt_pow2_of_log2.
    pose proof (N.log2_lxor (N.lxor l x) (N.lxor l k)). pose proof (top_le x Hx). pose proof (top_le k Hk). lia.
  Qed.

  Lemma dist_target_bucket : forall x, key_ok x -> x <> l -> k <> l ->
    bucket_index l x = bucket_index l k ->
    dist k x < 2 ^ (255 - bucket_index l k).
  Proof.
    intros x Hx Hne Hkl. rewrite !bucket_index_log2, (dist_via l k x). intro Heq.
    pose proof (top_le x Hx). pose proof (top_le k Hk).
    replace (255 - (255 - N.log2 (N.lxor l k))) with (N.log2 (N.lxor l x)) by lia.
    apply lxor_same_log2; [rewrite N.lxor_eq_0_iff; congruence..|lia].
  Qed.

  Lemma dist_higher_bucket : forall x, key_ok x -> x <> l -> k <> l ->
    bucket_index l k < bucket_index l x ->
    2 ^ (255 - bucket_index l k) <= dist k x.
  Proof.
    intros x Hx _ _. rewrite !bucket_index_log2, (dist_via l k x). intro Hlt.
    pose proof (top_le k Hk). replace (255 - (255 - N.log2 (N.lxor l k))) with (N.log2 (N.lxor l k)) by lia.
    apply pow2_le_lxor. lia.
  Qed.

  (* everything in a bucket at or above n is within 2 ^ (256 - n) of a key whose bucket is at or above n *)
  Let near : forall w n, key_ok w -> w <> l -> n <= bucket_index l w -> n <= bucket_index l k -> n <= 256 ->
    dist k w < 2 ^ (256 - n).
  Proof.
    intros w n Hw Hwl Lw Lk Ln. eapply N.lt_le_trans; [apply (dist_upper_bound w Hw Hwl)|].
    apply N.pow_le_mono_r; lia.
  Qed.

  (* The two facts the bucket walk's early exit relies on. *)

  (* (A) every node of the target bucket is closer to the key than every node of any other bucket *)
  Lemma target_bucket_closest : forall w x, key_ok w -> key_ok x -> w <> l -> x <> l ->
    bucket_index l w = bucket_index l k -> bucket_index l x <> bucket_index l k ->
    dist k w < dist k x.
  Proof.
    intros w x Hw Hx Hwl Hxl Ew Nx. pose proof (bucket_index_le l x) as Bx.
    destruct (N.lt_total (bucket_index l x) (bucket_index l k)) as [L|[E|G]]; [|contradiction|].
    - eapply N.lt_le_trans; [|apply (dist_lower_bucket x Hx Hxl L)].
      replace (255 - bucket_index l x) with (256 - (bucket_index l x + 1)) by lia. apply near; lia || assumption.
    - assert (Hkl : k <> l) by (intro; subst k; rewrite bucket_index_self in G; lia).
      eapply N.lt_le_trans; [apply (dist_target_bucket w Hw Hwl Hkl Ew)|apply (dist_higher_bucket x Hx Hxl Hkl G)].
  Qed.

  (* (B) a node in a bucket below the target is farther than every node in any higher-numbered bucket *)
  Lemma lower_bucket_farther : forall w x, key_ok w -> key_ok x -> w <> l -> x <> l ->
    bucket_index l x < bucket_index l k -> bucket_index l x < bucket_index l w ->
    dist k w < dist k x.
  Proof.
    intros w x Hw Hx Hwl Hxl Lk Lw. pose proof (bucket_index_le l k).
    eapply N.lt_le_trans; [|apply (dist_lower_bucket x Hx Hxl Lk)].
    replace (255 - bucket_index l x) with (256 - (bucket_index l x + 1)) by lia. apply near; lia || assumption.
  Qed.
End BucketDistance.
