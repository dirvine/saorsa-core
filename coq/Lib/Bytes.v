(* List facts used on byte strings that the standard library lacks.  No system content. *)
From SV Require Import Lib.Base.

Lemma firstn_len_app {A} (a b : list A) : firstn (length a) (a ++ b) = a.
Proof. rewrite <- (Nat.add_0_r (length a)), firstn_app_2. apply app_nil_r. Qed.

Lemma skipn_len_app {A} (a b : list A) : skipn (length a) (a ++ b) = b.
Proof. rewrite skipn_app, skipn_all, Nat.sub_diag. reflexivity. Qed.

(* a concatenation splits in one way only once the length of either part is known *)
Lemma app_inj_len {A} (a a' b b' : list A) :
  length a = length a' -> a ++ b = a' ++ b' -> a = a' /\ b = b'.
Proof.
  intros L E. split.
  - rewrite <- (firstn_len_app a b), E, L. apply firstn_len_app.
  - rewrite <- (skipn_len_app a b), E, L. apply skipn_len_app.
Qed.

Lemma app_inj_len_r {A} (a a' b b' : list A) :
  length b = length b' -> a ++ b = a' ++ b' -> a = a' /\ b = b'.
Proof.
  intros L E. apply app_inj_len; [|exact E].
  apply (f_equal (@length A)) in E. rewrite !app_length in E. lia.
Qed.

(* every model has its own copy of the list equality test [E] over the element test [e] *)
Lemma list_eqb_eq {A} (e : A -> A -> bool) (E : list A -> list A -> bool) :
  (forall x y, e x y = true <-> x = y) ->
  (forall a b, E a b = match a, b with
                       | [], [] => true
                       | x :: a', y :: b' => e x y && E a' b'
                       | _, _ => false
                       end) ->
  forall a b, E a b = true <-> a = b.
Proof.
  intros He HE. induction a as [|x a IH]; intros [|y b]; rewrite HE;
    try (split; [discriminate|congruence]); [tauto|].
  rewrite andb_true_iff, He, IH. split; [intros [-> ->]; reflexivity|intros [= -> ->]; auto].
Qed.
