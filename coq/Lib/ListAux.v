(* Small list facts the standard library lacks.  No system content. *)
From SV Require Import Lib.Base.
From Coq Require Import Sorting.Sorted.

Lemma In_firstn {A} (x : A) n l : In x (firstn n l) -> In x l.
Proof. intro H. rewrite <- (firstn_skipn n l). apply in_or_app. left; exact H. Qed.

Lemma NoDup_app_iff {A} (l1 l2 : list A) :
  NoDup (l1 ++ l2) <-> NoDup l1 /\ NoDup l2 /\ forall x, In x l1 -> ~ In x l2.
Proof.
  induction l1 as [|a l1 IH]; cbn [app In]; [pose proof (NoDup_nil A); tauto|].
  rewrite !NoDup_cons_iff, IH, in_app_iff. firstorder subst; auto.
Qed.

Lemma NoDup_app_l {A} (l1 l2 : list A) : NoDup (l1 ++ l2) -> NoDup l1.
Proof. intro H. apply NoDup_app_iff in H. apply H. Qed.

Lemma NoDup_snoc {A} (l : list A) x : NoDup l -> ~ In x l -> NoDup (l ++ [x]).
Proof.
  intros H Hx. apply NoDup_app_iff. repeat split; [exact H|repeat constructor; intros []|].
  intros y Hy [<-|[]]. exact (Hx Hy).
Qed.

Lemma NoDup_firstn {A} n (l : list A) : NoDup l -> NoDup (firstn n l).
Proof. rewrite <- (firstn_skipn n l) at 1. apply NoDup_app_l. Qed.

Lemma filter_all {A} (p : A -> bool) l : Forall (fun x => p x = true) l -> filter p l = l.
Proof. induction 1 as [|x l H _ IH]; cbn [filter]; [reflexivity | rewrite H, IH; reflexivity]. Qed.

Lemma filter_rev {A} (f : A -> bool) l : filter f (rev l) = rev (filter f l).
Proof.
  induction l as [|a l IH]; [reflexivity|]. cbn [rev filter]. rewrite filter_app, IH. cbn [filter].
  destruct (f a); [reflexivity|apply app_nil_r].
Qed.

Lemma StronglySorted_firstn {A} (R : A -> A -> Prop) n l :
  StronglySorted R l -> StronglySorted R (firstn n l).
Proof.
  intro H. revert n. induction H as [|a l Hs IH Hf]; intros [|n]; cbn [firstn]; constructor; [apply IH|].
  rewrite Forall_forall in *. intros x Hx. eapply Hf, In_firstn, Hx.
Qed.

(* an element of a sorted list survives truncation or is beyond everything kept *)
Lemma StronglySorted_firstn_cov {A} (R : A -> A -> Prop) n l x : StronglySorted R l -> In x l ->
  In x (firstn n l) \/ (length (firstn n l) = n /\ forall w, In w (firstn n l) -> R w x).
Proof.
  intro H. revert n. induction H as [|a l Hs IH Hf]; intros n Hx; [destruct Hx|].
  destruct n as [|n]; cbn [firstn length In]; [right; split; [reflexivity|intros w []]|].
  destruct Hx as [->|Hx]; [auto|]. destruct (IH n Hx) as [H|[Hl Hw]]; [auto|].
  right. split; [lia|]. rewrite Forall_forall in Hf. intros w [<-|Hin]; auto.
Qed.
