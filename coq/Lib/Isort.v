(* Facts on [StronglySorted] lists for an arbitrary relation, and a stable insertion sort for
   an arbitrary Boolean order: permutation, sortedness for a total preorder (on the elements
   satisfying P), stability is by construction (an element is placed before the first element
   it is not strictly after).  Used instead of Sorting.Mergesort because the ranking comparator
   is only a preorder on the values that occur (floats), so the order laws are relative to P. *)
From Coq Require Import Sorting.Sorted Permutation.
From SV Require Import Lib.Base.

Section Sorted.
  Context {A : Type} (R : A -> A -> Prop).

  (* in a sorted list whatever stands before is related to whatever stands after *)
  Lemma ss_app_cross : forall l1 l2 a b, StronglySorted R (l1 ++ l2) -> In a l1 -> In b l2 -> R a b.
  Proof.
    induction l1 as [|x l1 IH]; intros l2 a b S Ia Ib; [destruct Ia|].
    apply StronglySorted_inv in S. destruct S as [S F]. destruct Ia as [<-|Ia]; [|exact (IH _ _ _ S Ia Ib)].
    rewrite Forall_forall in F. apply F, in_or_app. right. exact Ib.
  Qed.

  Lemma ss_split3 : forall l1 x l2 y l3, StronglySorted R (l1 ++ x :: l2 ++ y :: l3) -> R x y.
  Proof.
    intros l1 x l2 y l3 S. apply (ss_app_cross (l1 ++ x :: l2) (y :: l3)); [|apply in_elt|left; reflexivity].
    rewrite <- app_assoc. exact S.
  Qed.

  Lemma ss_cut : forall n l x y, StronglySorted R l -> In x (firstn n l) -> In y (skipn n l) -> R x y.
  Proof. intros n l x y S. rewrite <- (firstn_skipn n l) in S. exact (ss_app_cross _ _ x y S). Qed.

  Lemma ss_filter : forall f l, StronglySorted R l -> StronglySorted R (filter f l).
  Proof.
    intros f l S. induction S as [|x l S IH F]; cbn [filter]; [constructor|].
    destruct (f x); [|exact IH]. constructor; [exact IH|].
    apply (incl_Forall (incl_filter f l) F).
  Qed.

  Lemma ss_nodup : forall l, (forall a, ~ R a a) -> StronglySorted R l -> NoDup l.
  Proof.
    intros l Irr S. induction S as [|x l S IH F]; constructor; [|exact IH].
    intro I. rewrite Forall_forall in F. exact (Irr x (F x I)).
  Qed.

  (* a list has at most one sorted arrangement when R is antisymmetric on its elements *)
  Lemma sorted_perm_unique : forall l1 l2,
    (forall a b, In a l1 -> In b l1 -> R a b -> R b a -> a = b) ->
    Permutation l1 l2 -> StronglySorted R l1 -> StronglySorted R l2 -> l1 = l2.
  Proof.
    induction l1 as [|x l1 IH]; intros l2 Anti Pm S1 S2.
    - apply Permutation_nil in Pm. subst. reflexivity.
    - destruct l2 as [|y l2]; [apply Permutation_sym, Permutation_nil in Pm; discriminate|].
      inversion S1 as [|? ? S1' H1]; subst. inversion S2 as [|? ? S2' H2]; subst.
      rewrite Forall_forall in H1, H2.
      assert (x = y) as ->.
      { destruct (Permutation_in x Pm (in_eq x l1)) as [->|Hx]; [reflexivity|].
        destruct (Permutation_in y (Permutation_sym Pm) (in_eq y l2)) as [->|Hy]; [reflexivity|].
        apply Anti; [left; reflexivity|right; exact Hy|apply H1; exact Hy|apply H2; exact Hx]. }
      f_equal. apply IH; auto.
      + intros a b Ha Hb. apply Anti; right; assumption.
      + eapply Permutation_cons_inv; exact Pm.
  Qed.
End Sorted.

(* a Boolean order that is total and transitive on the elements satisfying P *)
Definition preorder_on {A} (P : A -> Prop) (le : A -> A -> bool) : Prop :=
  (forall a b, P a -> P b -> le a b = true \/ le b a = true) /\
  (forall a b c, P a -> P b -> P c -> le a b = true -> le b c = true -> le a c = true).

Section Isort.
  Context {A : Type}.
  Variable le : A -> A -> bool.
  Definition le_true (a b : A) : Prop := le a b = true.

  Fixpoint insert (x : A) (l : list A) : list A :=
    match l with
    | [] => [x]
    | y :: tl => if le x y then x :: l else y :: insert x tl
    end.
  Definition isort (l : list A) : list A := fold_right insert [] l.

  Lemma insert_perm : forall x l, Permutation (x :: l) (insert x l).
  Proof.
    induction l as [|y tl IH]; cbn [insert]; [reflexivity|].
    destruct (le x y); [reflexivity|].
    eapply perm_trans; [apply perm_swap|]. apply perm_skip, IH.
  Qed.

  Lemma isort_perm : forall l, Permutation l (isort l).
  Proof.
    induction l as [|x l IH]; cbn [isort fold_right]; [constructor|].
    eapply perm_trans; [apply perm_skip, IH|]. apply insert_perm.
  Qed.

  Lemma isort_in : forall l x, In x (isort l) <-> In x l.
  Proof. intros l x. split; apply Permutation_in; [apply Permutation_sym|]; apply isort_perm. Qed.

  Lemma isort_length : forall l, length (isort l) = length l.
  Proof. intro l. symmetry. apply Permutation_length, isort_perm. Qed.

  Variable P : A -> Prop.
  Hypothesis le_pre : preorder_on P le.

  Lemma insert_sorted : forall x l, P x -> Forall P l ->
    StronglySorted le_true l -> StronglySorted le_true (insert x l).
  Proof.
    destruct le_pre as [le_total le_trans].
    induction l as [|y tl IH]; intros Px Pl S; cbn [insert].
    - constructor; constructor.
    - inversion Pl as [|? ? Py Ptl]; subst. inversion S as [|? ? Stl Hy]; subst.
      destruct (le x y) eqn:E.
      + constructor; [exact S|]. constructor; [exact E|].
        rewrite Forall_forall in Ptl, Hy. apply Forall_forall. intros z Hz.
        apply (le_trans x y z); auto. apply Hy, Hz.
      + constructor; [apply IH; assumption|].
        eapply Permutation_Forall; [apply insert_perm|]. constructor; [|exact Hy].
        destruct (le_total x y Px Py) as [H|H]; [congruence|exact H].
  Qed.

  Lemma isort_sorted : forall l, Forall P l -> StronglySorted le_true (isort l).
  Proof.
    induction l as [|x l IH]; intro H; cbn [isort fold_right]; [constructor|].
    inversion H; subst. apply insert_sorted; auto.
    eapply Permutation_Forall; [apply isort_perm|assumption].
  Qed.
End Isort.
